(* Base/AList.v — what the association lists, membership tests and
   de-duplication of Base/Prelude.v do.  The association-list facts are stated
   for any key equality that decides Leibniz equality; [Neqb_spec] and
   [Zeqb_spec] instantiate them for the two key types the models use. *)
From CS Require Import Base.Prelude Base.ListFacts.

Lemma Neqb_spec a b : N.eqb a b = true <-> a = b.
Proof. apply N.eqb_eq. Qed.
Lemma Zeqb_spec a b : Z.eqb a b = true <-> a = b.
Proof. apply Z.eqb_eq. Qed.

Section AListFacts.
  Context {K V : Type}.
  Variable eqb : K -> K -> bool.
  Hypothesis eqb_spec : forall a b, eqb a b = true <-> a = b.
  Implicit Types (k : K) (v : V) (l : list (K * V)).

  Lemma eqb_refl_ k : eqb k k = true.
  Proof. apply eqb_spec; reflexivity. Qed.

  Lemma eqb_neq a b : a <> b -> eqb a b = false.
  Proof. intros Hn. destruct (eqb a b) eqn:E; [apply eqb_spec in E; contradiction|reflexivity]. Qed.

  Lemma key_dec (a b : K) : {a = b} + {a <> b}.
  Proof.
    destruct (eqb a b) eqn:E; [left; apply eqb_spec; exact E|right].
    intros H. apply eqb_spec in H. congruence.
  Qed.

  Lemma aget_aset_if k k' v l :
    aget eqb k (aset eqb k' v l) = if eqb k k' then Some v else aget eqb k l.
  Proof.
    induction l as [|[k2 v2] r IH]; simpl; [reflexivity|].
    destruct (eqb k' k2) eqn:E; simpl.
    - apply eqb_spec in E; subst k2. destruct (eqb k k'); reflexivity.
    - destruct (eqb k k2) eqn:E2; [|exact IH]. destruct (eqb k k') eqn:E1; [|reflexivity].
      apply eqb_spec in E1, E2. subst. rewrite eqb_refl_ in E. discriminate.
  Qed.

  Lemma aget_aset_same k v l : aget eqb k (aset eqb k v l) = Some v.
  Proof. rewrite aget_aset_if, eqb_refl_. reflexivity. Qed.

  Lemma aget_aset_other k k' v l : k <> k' -> aget eqb k (aset eqb k' v l) = aget eqb k l.
  Proof. intros Hn. rewrite aget_aset_if, (eqb_neq _ _ Hn). reflexivity. Qed.

  Lemma aget_adel_same k l : aget eqb k (adel eqb k l) = None.
  Proof.
    induction l as [|[k' v'] r IH]; simpl; [reflexivity|].
    destruct (eqb k k') eqn:E; simpl; [exact IH|rewrite E; exact IH].
  Qed.

  Lemma aget_adel_other k k' l : k <> k' -> aget eqb k (adel eqb k' l) = aget eqb k l.
  Proof.
    intros Hn. induction l as [|[k2 v2] r IH]; simpl; [reflexivity|].
    destruct (eqb k' k2) eqn:E; simpl.
    - apply eqb_spec in E; subst k2. rewrite (eqb_neq _ _ Hn). exact IH.
    - destruct (eqb k k2); [reflexivity|exact IH].
  Qed.

  Lemma aget_adel_if k k' l :
    aget eqb k (adel eqb k' l) = if eqb k k' then None else aget eqb k l.
  Proof.
    destruct (key_dec k k') as [->|Hn].
    - rewrite eqb_refl_. apply aget_adel_same.
    - rewrite (eqb_neq _ _ Hn). apply aget_adel_other. exact Hn.
  Qed.

  Lemma amem_aset k k' v l : amem eqb k (aset eqb k' v l) = eqb k k' || amem eqb k l.
  Proof. unfold amem. rewrite aget_aset_if. destruct (eqb k k'); reflexivity. Qed.

  Lemma amem_adel k k' l : amem eqb k (adel eqb k' l) = negb (eqb k k') && amem eqb k l.
  Proof. unfold amem. rewrite aget_adel_if. destruct (eqb k k'); reflexivity. Qed.

  Lemma aset_twice k v1 v2 l : aset eqb k v2 (aset eqb k v1 l) = aset eqb k v2 l.
  Proof.
    induction l as [|[k' v'] r IH]; simpl.
    - rewrite eqb_refl_. reflexivity.
    - destruct (eqb k k') eqn:E; simpl; rewrite E; [reflexivity|f_equal; exact IH].
  Qed.

  Lemma aget_In k v l : aget eqb k l = Some v -> In (k, v) l.
  Proof.
    induction l as [|[k' v'] r IH]; simpl; [discriminate|].
    destruct (eqb k k') eqn:E.
    - intros H; inversion H; subst. apply eqb_spec in E; subst. left; reflexivity.
    - intros H; right; exact (IH H).
  Qed.

  Lemma aget_in_keys k v l : aget eqb k l = Some v -> In k (akeys l).
  Proof. intros H. apply aget_In in H. exact (in_map fst _ _ H). Qed.

  Lemma in_keys_aget k l : In k (akeys l) -> exists v, aget eqb k l = Some v.
  Proof.
    unfold akeys. induction l as [|[k' v'] r IH]; simpl; [contradiction|].
    intros [H|H].
    - subst k'. rewrite eqb_refl_. eauto.
    - destruct (eqb k k'); eauto.
  Qed.

  Lemma aget_none_notin k l : aget eqb k l = None <-> ~ In k (akeys l).
  Proof.
    split.
    - intros H Hin. destruct (in_keys_aget _ _ Hin) as [v Hv]. congruence.
    - intros H. destruct (aget eqb k l) eqn:E; [|reflexivity].
      exfalso. apply H. eapply aget_in_keys; eauto.
  Qed.

  Lemma amem_in_keys k l : amem eqb k l = true <-> In k (akeys l).
  Proof.
    unfold amem. split.
    - destruct (aget eqb k l) eqn:E; [intros _; eapply aget_in_keys; eauto|discriminate].
    - intros H. destruct (in_keys_aget _ _ H) as [v Hv]. rewrite Hv. reflexivity.
  Qed.

  Lemma in_map_fst k l : In k (map fst l) <-> exists v, In (k, v) l.
  Proof.
    rewrite in_map_iff. split.
    - intros [[k' v] [E H]]. simpl in E. subst k'. exists v. exact H.
    - intros [v H]. exists (k, v). split; [reflexivity|exact H].
  Qed.

  Lemma amem_true_iff k l : amem eqb k l = true <-> exists v, In (k, v) l.
  Proof. rewrite amem_in_keys. apply in_map_fst. Qed.

  Lemma In_aget_nodup k v l : NoDup (akeys l) -> In (k, v) l -> aget eqb k l = Some v.
  Proof.
    unfold akeys. induction l as [|[k' v'] r IH]; simpl; [contradiction|].
    intros Hnd [H|H].
    - inversion H; subst. rewrite eqb_refl_. reflexivity.
    - inversion Hnd as [|? ? Hnotin Hnd']; subst.
      destruct (eqb k k') eqn:E.
      + apply eqb_spec in E; subst k'. exfalso. apply Hnotin. exact (in_map fst _ _ H).
      + apply IH; assumption.
  Qed.

  Lemma In_aset k v l k' v' :
    In (k', v') (aset eqb k v l) -> (k' = k /\ v' = v) \/ In (k', v') l.
  Proof.
    induction l as [|[k2 v2] r IH]; simpl.
    - intros [H|[]]. inversion H. auto.
    - destruct (eqb k k2) eqn:E; simpl; intros [H|H]; auto.
      + inversion H; subst. apply eqb_spec in E. auto.
      + destruct (IH H); auto.
  Qed.

  Lemma aget_app_l k l r v : aget eqb k l = Some v -> aget eqb k (l ++ r) = Some v.
  Proof.
    induction l as [|[k' v'] t IH]; simpl; [discriminate|].
    destruct (eqb k k'); auto.
  Qed.

  Lemma aget_app_notin k l r : ~ In k (akeys l) -> aget eqb k (l ++ r) = aget eqb k r.
  Proof.
    unfold akeys. induction l as [|[k' v'] t IH]; simpl; [reflexivity|].
    intros H. destruct (eqb k k') eqn:E.
    - apply eqb_spec in E. subst. exfalso. apply H. left; reflexivity.
    - apply IH. intros Hin. apply H. right; exact Hin.
  Qed.

  Lemma aget_filter_keep (f : K * V -> bool) k v l :
    aget eqb k l = Some v -> f (k, v) = true -> aget eqb k (filter f l) = Some v.
  Proof.
    induction l as [|[k' v'] r IH]; simpl; [discriminate|].
    destruct (eqb k k') eqn:E.
    - intros H Hf. inversion H; subst v'. apply eqb_spec in E. subst k'.
      rewrite Hf. simpl. rewrite eqb_refl_. reflexivity.
    - intros H Hf. destruct (f (k', v')); simpl; [rewrite E|]; apply IH; assumption.
  Qed.

  Lemma aget_filter_none (f : K * V -> bool) k l :
    aget eqb k l = None -> aget eqb k (filter f l) = None.
  Proof.
    induction l as [|[k' v'] r IH]; simpl; [reflexivity|].
    destruct (eqb k k') eqn:E; [discriminate|].
    intros H. destruct (f (k', v')); simpl; [rewrite E|]; apply IH; exact H.
  Qed.

  Section MapVals.
    Context {W : Type} (g : K * V -> K * W) (f : K -> V -> W).
    Hypothesis g_spec : forall k v, g (k, v) = (k, f k v).

    Lemma aget_map_vals k l : aget eqb k (map g l) = option_map (f k) (aget eqb k l).
    Proof.
      induction l as [|[k' v'] r IH]; simpl; [reflexivity|]. rewrite g_spec. simpl.
      destruct (eqb k k') eqn:E; [apply eqb_spec in E; subst; reflexivity|exact IH].
    Qed.

    Lemma aset_map_vals k v l : map g (aset eqb k v l) = aset eqb k (f k v) (map g l).
    Proof.
      induction l as [|[k' v'] r IH]; simpl; rewrite ?g_spec; simpl; [reflexivity|].
      destruct (eqb k k') eqn:E; simpl; rewrite g_spec; [|f_equal; exact IH].
      apply eqb_spec in E. subst. reflexivity.
    Qed.

    Lemma adel_map_vals k l : map g (adel eqb k l) = adel eqb k (map g l).
    Proof.
      induction l as [|[k' v'] r IH]; simpl; [reflexivity|]. rewrite g_spec. simpl.
      destruct (eqb k k'); simpl; [exact IH|rewrite g_spec; f_equal; exact IH].
    Qed.
  End MapVals.

  Lemma akeys_app (a b : list (K * V)) : akeys (a ++ b) = akeys a ++ akeys b.
  Proof. apply map_app. Qed.

  Lemma aset_absent k v l : ~ In k (akeys l) -> aset eqb k v l = l ++ [(k, v)].
  Proof.
    unfold akeys. induction l as [|[k' v'] r IH]; simpl; [reflexivity|].
    intros H. destruct (eqb k k') eqn:E; simpl.
    - apply eqb_spec in E. subst. exfalso. apply H. left; reflexivity.
    - f_equal. apply IH. intros Hin. apply H. right; exact Hin.
  Qed.

  Lemma keys_aset_absent k v l : ~ In k (akeys l) -> akeys (aset eqb k v l) = akeys l ++ [k].
  Proof. intros H. rewrite (aset_absent _ _ _ H). apply akeys_app. Qed.

  Lemma keys_aset_present k v l : In k (akeys l) -> akeys (aset eqb k v l) = akeys l.
  Proof.
    unfold akeys. induction l as [|[k' v'] r IH]; simpl; [contradiction|].
    intros H. destruct (eqb k k') eqn:E; simpl; [reflexivity|].
    f_equal. apply IH. destruct H as [H|H]; [subst; rewrite eqb_refl_ in E; discriminate|exact H].
  Qed.

  Lemma nodup_aset k v l : NoDup (akeys l) -> NoDup (akeys (aset eqb k v l)).
  Proof.
    intros Hnd.
    destruct (in_dec key_dec k (akeys l)) as [H|H].
    - rewrite (keys_aset_present _ _ _ H). exact Hnd.
    - rewrite (keys_aset_absent _ _ _ H). apply (NoDup_Add (Add_app k (akeys l) [])).
      rewrite app_nil_r. auto.
  Qed.

  Lemma keys_adel k l : akeys (adel eqb k l) = filter (fun p => negb (eqb k p)) (akeys l).
  Proof.
    unfold akeys. induction l as [|[k' v'] r IH]; simpl; [reflexivity|].
    destruct (eqb k k'); simpl; [exact IH|f_equal; exact IH].
  Qed.

  Lemma nodup_adel k l : NoDup (akeys l) -> NoDup (akeys (adel eqb k l)).
  Proof. rewrite keys_adel. apply NoDup_filter. Qed.

  Lemma adel_filter k l : adel eqb k l = filter (fun kv => negb (eqb k (fst kv))) l.
  Proof.
    induction l as [|[k' v'] r IH]; simpl; [reflexivity|].
    destruct (eqb k k'); simpl; rewrite IH; reflexivity.
  Qed.

  Lemma adel_absent k l : aget eqb k l = None -> adel eqb k l = l.
  Proof.
    induction l as [|[k' v'] r IH]; simpl; [reflexivity|].
    destruct (eqb k k'); [discriminate|]. intros H. rewrite (IH H). reflexivity.
  Qed.

  Lemma nodup_fold_adel ks : forall l,
    NoDup (akeys l) -> NoDup (akeys (fold_left (fun l k => adel eqb k l) ks l)).
  Proof.
    induction ks as [|k t IH]; simpl; intros l H; [exact H|]. apply IH, nodup_adel, H.
  Qed.
End AListFacts.

Lemma memN_In x l : memN x l = true <-> In x l.
Proof.
  induction l as [|y r IH]; simpl; [split; [discriminate|tauto]|].
  rewrite orb_true_iff, IH, N.eqb_eq. split; intros [H|H]; auto.
Qed.

Lemma memN_false x l : memN x l = false <-> ~ In x l.
Proof. rewrite <- memN_In. destruct (memN x l); split; congruence. Qed.

Lemma fold_adel_filter {V} ks : forall (l : list (N * V)),
  fold_left (fun l k => adel N.eqb k l) ks l = filter (fun kv => negb (memN (fst kv) ks)) l.
Proof.
  induction ks as [|k t IH]; simpl; intros l.
  - induction l as [|kv l IHl]; simpl; [|rewrite <- IHl]; reflexivity.
  - rewrite IH, (adel_filter N.eqb), filter_filter. apply filter_ext. intros kv.
    rewrite negb_orb, (N.eqb_sym k). reflexivity.
Qed.

Lemma In_removeN q p l : In q (removeN p l) <-> In q l /\ q <> p.
Proof. unfold removeN. rewrite filter_In, negb_true_iff, N.eqb_neq. tauto. Qed.

Lemma dedupN_aux_In seen l x : In x (dedupN_aux seen l) <-> In x l /\ ~ In x seen.
Proof.
  revert seen. induction l as [|y r IH]; simpl; intros seen; [tauto|].
  destruct (memN y seen) eqn:E.
  - apply memN_In in E. rewrite IH. intuition (subst; contradiction).
  - apply memN_false in E. simpl. rewrite IH. simpl.
    destruct (N.eq_dec y x) as [->|Hn]; intuition.
Qed.

Lemma dedupN_aux_nodup seen l : NoDup (dedupN_aux seen l).
Proof.
  revert seen. induction l as [|y r IH]; simpl; intros seen; [constructor|].
  destruct (memN y seen); [apply IH|]. constructor; [|apply IH].
  rewrite dedupN_aux_In. simpl. tauto.
Qed.

Lemma dedupN_In l x : In x (dedupN l) <-> In x l.
Proof. unfold dedupN. rewrite dedupN_aux_In. simpl. tauto. Qed.

Lemma dedupN_nodup l : NoDup (dedupN l).
Proof. apply dedupN_aux_nodup. Qed.
