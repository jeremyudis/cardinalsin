(* Base/ListFacts.v — facts about plain lists that the standard library lacks:
   invariants of fold_left, NoDup of an append, filter, Permutation, Forall2. *)
From Coq Require Import List Permutation Bool Arith Lia.
Import ListNotations.

Lemma fold_left_rel {A B X} (f : A -> X -> A) (g : B -> X -> B) (R : A -> B -> Prop) l :
  (forall a b x, In x l -> R a b -> R (f a x) (g b x)) ->
  forall a b, R a b -> R (fold_left f l a) (fold_left g l b).
Proof.
  induction l as [|x r IH]; simpl; intros step a b H; [exact H|].
  apply IH; [intros a' b' y Hy|]; apply step; auto.
Qed.

Lemma fold_left_inv {A X} (P : A -> Prop) (f : A -> X -> A) l :
  (forall a x, In x l -> P a -> P (f a x)) -> forall a, P a -> P (fold_left f l a).
Proof. intros step a. exact (fold_left_rel f f (fun a _ => P a) l (fun a _ => step a) a a). Qed.

Lemma fold_left_proj {A B X} (f : A -> X -> A) (g : B -> X -> B) (pr : A -> B) :
  (forall a x, pr (f a x) = g (pr a) x) -> forall l a, pr (fold_left f l a) = fold_left g l (pr a).
Proof.
  intros Hf l a. apply (fold_left_rel f g (fun a b => pr a = b)); [|reflexivity].
  intros a' b' x _ <-. apply Hf.
Qed.

Lemma fold_left_last {A X} (f : A -> X -> A) l a : l <> [] -> exists a' x, fold_left f l a = f a' x.
Proof. intros Hne. destruct (exists_last Hne) as (l' & x & ->). rewrite fold_left_app. simpl. eauto. Qed.

Lemma nodup_app_iff {A} (l1 l2 : list A) :
  NoDup (l1 ++ l2) <-> NoDup l1 /\ NoDup l2 /\ (forall x, In x l1 -> ~ In x l2).
Proof.
  induction l1 as [|a l1 IH]; simpl.
  - pose proof (NoDup_nil A). tauto.
  - rewrite !NoDup_cons_iff, IH, in_app_iff. intuition (subst; eauto).
Qed.

Lemma nodup_map_filter {A B} (f : A -> B) (g : A -> bool) (l : list A) :
  NoDup (map f l) -> NoDup (map f (filter g l)).
Proof.
  induction l as [|a l IH]; simpl; [constructor|]. rewrite NoDup_cons_iff. intros [Hni Hnd].
  destruct (g a); simpl; [|exact (IH Hnd)]. constructor; [|exact (IH Hnd)].
  intros Hc. apply Hni. exact (incl_map f (incl_filter g l) _ Hc).
Qed.

Lemma filter_filter {A} (f g : A -> bool) (l : list A) :
  filter f (filter g l) = filter (fun x => g x && f x) l.
Proof.
  induction l as [|a l IH]; simpl; [reflexivity|].
  destruct (g a); simpl; [destruct (f a)|]; rewrite IH; reflexivity.
Qed.

Lemma filter_filter_comm {A} (f g : A -> bool) (l : list A) :
  filter f (filter g l) = filter g (filter f l).
Proof. rewrite !filter_filter. apply filter_ext. intros a. apply andb_comm. Qed.

Lemma filter_length_split {A} (f : A -> bool) (l : list A) :
  length (filter f l) + length (filter (fun x => negb (f x)) l) = length l.
Proof.
  induction l as [|a l IH]; simpl; [reflexivity|]. destruct (f a); simpl; lia.
Qed.

Lemma filter_length_le {A} (f : A -> bool) (l : list A) : length (filter f l) <= length l.
Proof. pose proof (filter_length_split f l). lia. Qed.

Lemma filter_all_false {A} (f : A -> bool) l : (forall x, In x l -> f x = false) -> filter f l = [].
Proof.
  induction l as [|a l IH]; intros H; simpl; [reflexivity|].
  rewrite (H a (or_introl eq_refl)). apply IH. intros x Hx. apply H. right; exact Hx.
Qed.

Lemma existsb_false {A} (f : A -> bool) l : existsb f l = false -> forall x, In x l -> f x = false.
Proof.
  intros H x Hx. destruct (f x) eqn:E; [|reflexivity].
  rewrite <- H. symmetry. apply existsb_exists. eauto.
Qed.

Lemma forallb_false {A} (f : A -> bool) l : forallb f l = false -> exists x, In x l /\ f x = false.
Proof.
  induction l as [|a l IH]; simpl; [discriminate|]. intros H. apply andb_false_iff in H.
  destruct H as [H | H]; [exists a; auto|]. destruct (IH H) as (x & Hx & E). exists x; auto.
Qed.

Lemma flat_map_ext_in {A B} (f g : A -> list B) l :
  (forall x, In x l -> f x = g x) -> flat_map f l = flat_map g l.
Proof. intros H. rewrite !flat_map_concat_map. f_equal. apply map_ext_in. exact H. Qed.

Lemma flat_map_map {A B C} (f : B -> list C) (g : A -> B) l :
  flat_map f (map g l) = flat_map (fun x => f (g x)) l.
Proof. induction l as [|a r IH]; simpl; [reflexivity|]. rewrite IH. reflexivity. Qed.

Lemma perm_filter {A} (f : A -> bool) l l' : Permutation l l' -> Permutation (filter f l) (filter f l').
Proof.
  induction 1 as [|x l l' _ IH|x y l|l l' l'' _ IH1 _ IH2]; simpl.
  - constructor.
  - destruct (f x); [constructor|]; exact IH.
  - destruct (f x), (f y); try apply perm_swap; apply Permutation_refl.
  - eapply perm_trans; eassumption.
Qed.

Lemma perm_filter_split {A} (f : A -> bool) l :
  Permutation l (filter f l ++ filter (fun x => negb (f x)) l).
Proof.
  induction l as [|x l IH]; simpl; [constructor|].
  destruct (f x); simpl.
  - constructor; exact IH.
  - apply Permutation_cons_app; exact IH.
Qed.

Lemma firstn_len_app {A} (l r : list A) n : length l = n -> firstn n (l ++ r) = l.
Proof. intros <-. rewrite firstn_app, Nat.sub_diag, firstn_all. simpl. apply app_nil_r. Qed.

Lemma skipn_len_app {A} (l r : list A) n : length l = n -> skipn n (l ++ r) = r.
Proof. intros <-. rewrite skipn_app, Nat.sub_diag, skipn_all. reflexivity. Qed.

Lemma firstn_repeat_le {A} (x : A) a : forall b, a <= b -> firstn a (repeat x b) = repeat x a.
Proof.
  induction a as [|a IH]; intros b Hab; [reflexivity|].
  destruct b; [lia|]. simpl. f_equal. apply IH. lia.
Qed.

Lemma Forall_snoc {A} (P : A -> Prop) l x : Forall P l -> P x -> Forall P (l ++ [x]).
Proof. intros Hl Hx. apply Forall_app. auto. Qed.

Lemma Forall_nth_error {A} {P : A -> Prop} {l i x} : Forall P l -> nth_error l i = Some x -> P x.
Proof. intros Hl Hx. rewrite Forall_forall in Hl. exact (Hl _ (nth_error_In _ _ Hx)). Qed.

Lemma Forall2_impl_In {A B} (P Q : A -> B -> Prop) l1 l2 :
  (forall a b, In a l1 -> P a b -> Q a b) -> Forall2 P l1 l2 -> Forall2 Q l1 l2.
Proof.
  intros H F. induction F as [|a b l1 l2 Hab _ IH]; constructor.
  - apply H; [left; reflexivity|exact Hab].
  - apply IH. intros x y Hx. apply H. right. exact Hx.
Qed.

Lemma Forall2_length {A B} (P : A -> B -> Prop) l1 l2 : Forall2 P l1 l2 -> length l1 = length l2.
Proof. intros H. induction H; simpl; auto. Qed.

Lemma Forall2_map_r {A B} (P : A -> B -> Prop) (f : A -> B) l : (forall a, P a (f a)) -> Forall2 P l (map f l).
Proof. intros H. induction l; simpl; constructor; auto. Qed.
