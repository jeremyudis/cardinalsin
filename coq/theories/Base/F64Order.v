(* Base/F64Order.v — order facts about IEEE-754 binary64 (Flocq) used by the
   predicate properties: an order embedding of the non-NaN floats into the
   reals, and monotonicity of the integer -> f64 conversion (`n as f64`,
   round to nearest even) for every integer. *)
From Coq Require Import ZArith Reals Lra Lia Bool.
From Flocq Require Import Core IEEE754.BinarySingleNaN IEEE754.Binary IEEE754.Bits.
Open Scope Z_scope.

(* `n as f64` for n : i64 / u64 *)
Definition Z2F (z : Z) : binary64 :=
  binary_normalize 53 1024 (eq_refl Lt) (eq_refl Lt) mode_NE z 0 false.

Definition f_nan (x : binary64) : bool := is_nan 53 1024 x.

(* 2^1024: above every finite f64 *)
Definition big : R := bpow radix2 1024.

(* order embedding: finite floats by their value, the infinities just outside *)
Definition fE (x : binary64) : R :=
  match x with
  | B754_infinity _ _ s => if s then (- big)%R else big
  | _ => B2R 53 1024 x
  end.

Lemma big_pos : (0 < big)%R.
Proof. apply bpow_gt_0. Qed.

Lemma fE_finite_bound : forall x : binary64, is_finite 53 1024 x = true -> (- big < fE x < big)%R.
Proof.
  intros x Hf.
  assert (Hb := abs_B2R_lt_emax 53 1024 x).
  destruct x; try discriminate; unfold fE; fold big in Hb;
    apply Rabs_lt_inv in Hb; exact Hb.
Qed.

Lemma b64_compare_E : forall x y : binary64,
  f_nan x = false -> f_nan y = false ->
  b64_compare x y = Some (Rcompare (fE x) (fE y)).
Proof.
  intros x y Hx Hy. unfold b64_compare.
  destruct (is_finite 53 1024 x) eqn:Fx, (is_finite 53 1024 y) eqn:Fy.
  - rewrite (Bcompare_correct 53 1024 x y Fx Fy).
    destruct x, y; try discriminate; reflexivity.
  - assert (Bx := fE_finite_bound x Fx).
    destruct y as [ | sy | | ]; try discriminate.
    assert (Hc : Bcompare 53 1024 x (B754_infinity 53 1024 sy) = Some (if sy then Gt else Lt))
      by (destruct x; try discriminate; reflexivity).
    rewrite Hc. f_equal. symmetry. cbn [fE].
    destruct sy; [apply Rcompare_Gt | apply Rcompare_Lt]; lra.
  - assert (By := fE_finite_bound y Fy).
    destruct x as [ | sx | | ]; try discriminate.
    assert (Hc : Bcompare 53 1024 (B754_infinity 53 1024 sx) y = Some (if sx then Lt else Gt))
      by (destruct y; try discriminate; reflexivity).
    rewrite Hc. f_equal. symmetry. cbn [fE].
    destruct sx; [apply Rcompare_Lt | apply Rcompare_Gt]; lra.
  - destruct x as [ | sx | | ], y as [ | sy | | ]; try discriminate.
    assert (P := big_pos). cbn [fE].
    (* big stays folded: unfolding it makes cbn compute 2^1024 as a real *)
    destruct sx, sy; cbn -[big]; f_equal; symmetry.
    + (* -inf, -inf *) apply Rcompare_Eq; reflexivity.
    + (* -inf, +inf *) apply Rcompare_Lt; lra.
    + (* +inf, -inf *) apply Rcompare_Gt; lra.
    + (* +inf, +inf *) apply Rcompare_Eq; reflexivity.
Qed.

Lemma b64_compare_nan_l : forall x y : binary64, f_nan x = true -> b64_compare x y = None.
Proof. intros x y H. destruct x; try discriminate. destruct y; reflexivity. Qed.
Lemma b64_compare_nan_r : forall x y : binary64, f_nan y = true -> b64_compare x y = None.
Proof. intros x y H. destruct y; try discriminate. destruct x; reflexivity. Qed.

Lemma b64_compare_some : forall (x y : binary64) c,
  b64_compare x y = Some c ->
  f_nan x = false /\ f_nan y = false /\ c = Rcompare (fE x) (fE y).
Proof.
  intros x y c H.
  destruct (f_nan x) eqn:Nx. { rewrite (b64_compare_nan_l x y Nx) in H. discriminate. }
  destruct (f_nan y) eqn:Ny. { rewrite (b64_compare_nan_r x y Ny) in H. discriminate. }
  rewrite (b64_compare_E x y Nx Ny) in H. inversion H. auto.
Qed.

Lemma b64_compare_swap : forall x y : binary64,
  b64_compare y x = match b64_compare x y with Some c => Some (CompOpp c) | None => None end.
Proof. intros x y. apply Bcompare_swap. Qed.

Definition rnd (r : R) : R := round radix2 (SpecFloat.fexp 53 1024) ZnearestE r.
Definition clamp (r : R) : R := Rmax (- big) (Rmin big r).

Lemma fexp64_valid : Valid_exp (SpecFloat.fexp 53 1024).
Proof. exact (fexp_correct 53 1024 (eq_refl Lt)). Qed.

Lemma clamp_mono : forall a b, (a <= b)%R -> (clamp a <= clamp b)%R.
Proof.
  intros a b H. unfold clamp. apply Rle_max_compat_l, Rle_min_compat_l, H.
Qed.

Lemma rnd_mono : forall a b, (a <= b)%R -> (rnd a <= rnd b)%R.
Proof.
  intros a b H. unfold rnd. apply round_le; [exact fexp64_valid | apply valid_rnd_N | exact H].
Qed.

Lemma rnd_0 : rnd 0 = 0%R.
Proof. apply round_0, valid_rnd_N. Qed.

Lemma Z2F_spec : forall z : Z,
  f_nan (Z2F z) = false /\ fE (Z2F z) = clamp (rnd (IZR z)).
Proof.
  intros z.
  assert (HF : F2R (Float radix2 z 0) = IZR z).
  { unfold F2R. cbn. lra. }
  generalize (binary_normalize_correct 53 1024 (eq_refl Lt) (eq_refl Lt) mode_NE z 0 false).
  fold (Z2F z). rewrite HF. cbn [round_mode]. fold (rnd (IZR z)). fold big.
  assert (P := big_pos).
  destruct (Rlt_bool_spec (Rabs (rnd (IZR z))) big) as [Hlt | Hge].
  - intros (Hr & Hfin & _).
    apply Rabs_lt_inv in Hlt.
    split.
    + unfold f_nan. destruct (Z2F z); try discriminate; reflexivity.
    + assert (fE (Z2F z) = B2R 53 1024 (Z2F z)) as -> by (destruct (Z2F z); try discriminate; reflexivity).
      rewrite Hr. unfold clamp.
      rewrite Rmin_right by lra. rewrite Rmax_right by lra. reflexivity.
  - intros Hov.
    unfold binary_overflow, BinarySingleNaN.binary_overflow in Hov. cbn in Hov.
    destruct (Rlt_bool_spec (IZR z) 0) as [Hneg | Hpos].
    + assert (Hz : Z2F z = B754_infinity 53 1024 true).
      { destruct (Z2F z); try discriminate. cbn in Hov. inversion Hov. reflexivity. }
      rewrite Hz. split; [reflexivity|]. cbn [fE].
      assert (Hr0 : (rnd (IZR z) <= 0)%R).
      { rewrite <- rnd_0. apply rnd_mono. lra. }
      rewrite Rabs_left1 in Hge by exact Hr0.
      unfold clamp. rewrite Rmin_right by lra. rewrite Rmax_left by lra. reflexivity.
    + assert (Hz : Z2F z = B754_infinity 53 1024 false).
      { destruct (Z2F z); try discriminate. cbn in Hov. inversion Hov. reflexivity. }
      rewrite Hz. split; [reflexivity|]. cbn [fE].
      assert (Hr0 : (0 <= rnd (IZR z))%R).
      { rewrite <- rnd_0. apply rnd_mono. lra. }
      rewrite Rabs_pos_eq in Hge by exact Hr0.
      unfold clamp. rewrite Rmin_left by lra. rewrite Rmax_right by lra. reflexivity.
Qed.

Lemma Z2F_not_nan : forall z, f_nan (Z2F z) = false.
Proof. intros z. apply Z2F_spec. Qed.

Lemma Z2F_fE : forall z, fE (Z2F z) = clamp (rnd (IZR z)).
Proof. intros z. apply Z2F_spec. Qed.

Lemma Z2F_mono : forall a b : Z, a <= b -> (fE (Z2F a) <= fE (Z2F b))%R.
Proof.
  intros a b H. rewrite !Z2F_fE. apply clamp_mono, rnd_mono, IZR_le, H.
Qed.
