(* C11 — The query interfaces cannot modify stored data.
   Statements only; every proof is `exact <lemma>`; assumptions printed. *)
From CS Require Import Base.Prelude Model.SqlGate Proofs.SqlGateProofs.

(* For every plan tree the embedded engine can produce (query operators, DML,
   DDL, COPY, session statements, DESCRIBE, with EXPLAIN / EXPLAIN ANALYZE and
   subqueries nested to any depth): if the admission the code applies lets it
   through, planning and running it creates or overwrites no stored object and
   changes neither the catalog, the session nor the function registry.  (The
   model has no effect for deleting objects: a DELETE node, which is not admitted
   anyway, is refused by the physical planner.) *)
Theorem C11_readonly : forall p : plan, admitted p = true -> effects p = [].
Proof. exact admitted_effects_nil. Qed.
Print Assumptions C11_readonly.

(* Conversely a statement that would write or redefine anything is rejected. *)
Theorem C11_writing_statements_rejected : forall p : plan, effects p <> [] -> admitted p = false.
Proof. exact effectful_rejected. Qed.
Print Assumptions C11_writing_statements_rejected.

(* Every call site that hands user SQL to the engine (extract_time_range,
   extract_column_predicates, execute, execute_with_indexes, execute_stream,
   analyze, prepare) either returns an error or has no effect. *)
Theorem C11_every_call_site_readonly :
  forall (s : site) (p : plan), site_call s p = None \/ site_call s p = Some [].
Proof. exact site_call_readonly. Qed.
Print Assumptions C11_every_call_site_readonly.

(* Every interface (SQL HTTP / websocket / Prometheus / Flight do_get through
   QueryNode::query, with or without adaptive indexing; the streaming executor;
   Flight SQL get_flight_info and prepared statements) and every request
   (zero, one or several statements): no effect at all, including the effects
   of the calls made before the request is refused. *)
Theorem C11_interfaces_readonly :
  forall (i : iface) (stmts : list plan), snd (submit i stmts) = [].
Proof. exact submit_readonly. Qed.
Print Assumptions C11_interfaces_readonly.

(* A request is served exactly when it is one admitted statement. *)
Theorem C11_accepted_iff_single_admitted :
  forall (i : iface) (stmts : list plan),
    fst (submit i stmts) = true <-> exists p, stmts = [p] /\ admitted p = true.
Proof. exact submit_accepts_iff. Qed.
Print Assumptions C11_accepted_iff_single_admitted.

(* The code before the repair (plain `ctx.sql`, which admits everything) let a
   COPY to a fresh path through: the witness reproduced on the real code. *)
Theorem C11_refuted_before_fix :
  admitted_with opts_unrestricted w_copy_fresh = true /\ effects w_copy_fresh = [EStoreWrite LFresh].
Proof. exact refuted_before_fix. Qed.
Print Assumptions C11_refuted_before_fix.

(* ... and ran DROP TABLE three times per request, at planning. *)
Theorem C11_refuted_before_fix_ddl_eager :
  run_sites_unrestricted (iface_sites ISqlHttp) w_drop_metrics
  = [ECatalog DropTable; ECatalog DropTable; ECatalog DropTable].
Proof. exact refuted_before_fix_ddl_eager. Qed.
Print Assumptions C11_refuted_before_fix_ddl_eager.

(* The former witnesses and their relatives are rejected on every interface. *)
Theorem C11_regression_cases_rejected :
  forallb (fun p => forallb (fun i => match submit i [p] with (false, []) => true | _ => false end) all_ifaces)
          regression_cases = true.
Proof. exact regression_cases_rejected. Qed.
Print Assumptions C11_regression_cases_rejected.
