(* C04 — Query answers equal a full scan of everything ingested.
   Statements only; every proof is `exact <lemma>`; assumptions printed.

   Reading.  A statement of the supported family is a list [fs] of WHERE
   predicates (one per Filter node of its plan; Model/Pred.v gives the AST and
   its meaning under SQL three-valued logic for EVERY interpretation [I] of
   now(), of the opaque operands and of the label atoms) plus a projection /
   aggregation part [post].  `extract fs` is QueryEngine::extract_time_range
   as coded after the fix: commit 3f63730 (interval analysis: AND = intersection,
   OR = covering interval, NOT / != / non-literal operands = unbounded, the
   "last hour" default only when no filter mentions the timestamp);
   `plan_preds fs` is extract_column_predicates (through
   extract_predicates_from_plan); `select_chunks` is the chunk
   selection of QueryNode::query_for_tenant on either metadata backend
   (Model/Catalog.v, exact by C07).  `finite_window I fs`: the WHERE clause
   confines the timestamp to a finite window (scope of the property).

   Assumptions of the composition theorems, all explicit premises:
   C06 (chunk metadata covers its rows), C12 (statistics gate sound, over the
   opaque column predicates of Model/Pred.v), and the one assumption about
   DataFusion: the answer is
   [post] of the rows the filters accept, independent of row order. *)
From Coq Require Import Permutation.
From CS Require Import Base.Prelude Model.Pred Model.Catalog Model.TimeExtract
  Proofs.CatalogProofs Proofs.TimeExtractProofs.
Open Scope Z_scope.

(* The interval analysis is sound for the whole predicate AST (induction over
   the tree): a row on which the predicate is TRUE lies in the extracted
   interval. *)
Theorem C04_bounds_sound :
  forall (I : interp) (p : pred) (r : row),
  in_i64 (r_ts r) = true -> sem I p r = Some true ->
  fst (bounds p) <= r_ts r <= snd (bounds p).
Proof. exact bounds_sound. Qed.
Print Assumptions C04_bounds_sound.

(* pruning_sound: whenever a range is extracted from the plan's filters, every
   row that passes all of them has its timestamp inside the range. *)
Theorem C04_pruning_sound :
  forall (I : interp) (fs : list pred) (r : row) (lo hi : Z),
  in_i64 (r_ts r) = true -> sat_all I fs r = true ->
  extract fs = TRange lo hi -> lo <= r_ts r <= hi.
Proof. exact pruning_sound. Qed.
Print Assumptions C04_pruning_sound.

(* A satisfiable finite-window statement is never answered through the
   "last hour" default. *)
Theorem C04_finite_window_not_default :
  forall (I : interp) (fs : list pred),
  finite_window I fs -> (exists r, sat_all I fs r = true) -> extract fs <> TDefault.
Proof. exact finite_window_not_default. Qed.
Print Assumptions C04_finite_window_not_default.

(* Resolved form: for a finite-window statement the range handed to the
   metadata client contains every matching row, whatever the clock says. *)
Theorem C04_pruning_sound_finite_window :
  forall (I : interp) (fs : list pred) (r : row) (now : Z),
  finite_window I fs -> in_i64 (r_ts r) = true -> sat_all I fs r = true ->
  fst (resolve now (extract fs)) <= r_ts r <= snd (resolve now (extract fs)).
Proof. exact pruning_sound_finite_window. Qed.
Print Assumptions C04_pruning_sound_finite_window.

(* Pushed-down column predicates mean exactly what the WHERE clause means. *)
Theorem C04_convert_exact :
  forall (I : interp) (p : pred) (c : cpred) (r : row),
  convert p = Some c -> csem I c r = sem I p r.
Proof. exact convert_exact. Qed.
Print Assumptions C04_convert_exact.

Theorem C04_plan_preds_sound :
  forall (I : interp) (fs : list pred) (r : row) (c : cpred),
  sat_all I fs r = true -> In c (plan_preds fs) -> csem I c r = Some true.
Proof. exact plan_preds_sound. Qed.
Print Assumptions C04_plan_preds_sound.

(* selected_superset: on both backends, every live chunk holding a row the
   statement accepts is among the selected chunks. *)
Theorem C04_selected_superset :
  forall (I : interp) (content : path -> list row) (prune : list cpred -> path -> bool)
         (h : list cop),
  hist_ok h ->
  (* C06 *) (forall p m r, In (p, m) (spec_run h) -> In r (content p) ->
               m_min m <= r_ts r <= m_max m /\ in_i64 (r_ts r) = true) ->
  (* C12 *) (forall cs p r, In r (content p) ->
               (forall c, In c cs -> csem I c r = Some true) -> prune cs p = true) ->
  forall (now : Z) (fs : list pred) (p : path) (m : cmeta) (r : row),
  finite_window I fs ->
  In (p, m) (spec_run h) -> In r (content p) -> sat_all I fs r = true ->
  (exists sel, select_chunks (s3_get (s3_run h)) prune now fs = Done sel /\ In p sel) /\
  (exists sel, select_chunks (local_get (local_run h)) no_gate now fs = Done sel /\ In p sel).
Proof. exact selected_superset. Qed.
Print Assumptions C04_selected_superset.

(* C04: the answer over the selected chunks equals the answer over all rows,
   for every placement [content] of the rows into chunk files, every catalog
   history, both backends, every clock value. *)
Theorem C04_answer_eq_full_scan :
  forall (I : interp) (content : path -> list row) (prune : list cpred -> path -> bool)
         (answer : Type) (engine : list pred -> list row -> answer) (post : list row -> answer)
         (h : list cop),
  hist_ok h ->
  (* C06 *) (forall p m r, In (p, m) (spec_run h) -> In r (content p) ->
               m_min m <= r_ts r <= m_max m /\ in_i64 (r_ts r) = true) ->
  (* C12 *) (forall cs p r, In r (content p) ->
               (forall c, In c cs -> csem I c r = Some true) -> prune cs p = true) ->
  (* DataFusion *) (forall fs rows, engine fs rows = post (filter (sat_all I fs) rows)) ->
  (* DataFusion *) (forall rows rows', Permutation rows rows' -> post rows = post rows') ->
  forall (now : Z) (fs : list pred),
  finite_window I fs ->
  (exists sel, select_chunks (s3_get (s3_run h)) prune now fs = Done sel /\
               engine fs (rows_of content sel) = engine fs (all_rows content h)) /\
  (exists sel, select_chunks (local_get (local_run h)) no_gate now fs = Done sel /\
               engine fs (rows_of content sel) = engine fs (all_rows content h)).
Proof. exact answer_eq_full_scan. Qed.
Print Assumptions C04_answer_eq_full_scan.

(* The answer does not depend on how the rows were split into chunks (nor on
   the backend, nor on the clock): two placements of the same multiset of rows
   give the same answer. *)
Theorem C04_chunking_independent :
  forall (I : interp) (answer : Type) (engine : list pred -> list row -> answer)
         (post : list row -> answer)
         (content1 content2 : path -> list row) (prune1 prune2 : list cpred -> path -> bool)
         (h1 h2 : list cop) (now1 now2 : Z) (fs : list pred),
  hist_ok h1 -> hist_ok h2 ->
  (forall p m r, In (p, m) (spec_run h1) -> In r (content1 p) ->
     m_min m <= r_ts r <= m_max m /\ in_i64 (r_ts r) = true) ->
  (forall p m r, In (p, m) (spec_run h2) -> In r (content2 p) ->
     m_min m <= r_ts r <= m_max m /\ in_i64 (r_ts r) = true) ->
  (forall cs p r, In r (content1 p) -> (forall c, In c cs -> csem I c r = Some true) -> prune1 cs p = true) ->
  (forall cs p r, In r (content2 p) -> (forall c, In c cs -> csem I c r = Some true) -> prune2 cs p = true) ->
  (forall fs rows, engine fs rows = post (filter (sat_all I fs) rows)) ->
  (forall rows rows', Permutation rows rows' -> post rows = post rows') ->
  Permutation (all_rows content1 h1) (all_rows content2 h2) ->
  finite_window I fs ->
  forall sel1 sel2,
    select_chunks (s3_get (s3_run h1)) prune1 now1 fs = Done sel1 ->
    select_chunks (local_get (local_run h2)) prune2 now2 fs = Done sel2 ->
    engine fs (rows_of content1 sel1) = engine fs (rows_of content2 sel2).
Proof. exact chunking_independent. Qed.
Print Assumptions C04_chunking_independent.

(* ---- known finding (open): empty-selection-schema-of-earlier-registration ----
   The statement is planned against whatever table is bound to `metrics`.  An
   empty chunk selection re-registers an EmptyTable with the schema of the
   PREVIOUS binding (the default metrics schema on a fresh node), so a statement
   that type-checks against the ingested data can fail instead of returning the
   empty answer.  The full-strength statement "pipeline outcome = full-scan
   outcome for every node state" is therefore false of the code: *)
Theorem C04_refuted_empty_selection_schema :
  exists sel,
    select_chunks (local_get (local_run refut_h)) no_gate 0 refut_fs = Done sel /\
    known_empty_selection_schema qnode_fresh KInt64 sel = true /\
    snd (run_query refut_typechecks refut_exec refut_content qnode_fresh KInt64 sel) = Failed 1%N /\
    full_scan refut_typechecks refut_exec refut_content KInt64 (live_paths refut_h) = Done 0%nat.
Proof. exact refuted_empty_selection_schema. Qed.
Print Assumptions C04_refuted_empty_selection_schema.

(* C04_modulo_known: for every node state, data schema, statement typing and
   both backends, outside the known class the outcome of the pipeline (answer
   or type-check error) is the outcome of the full scan. *)
Theorem C04_modulo_known :
  forall (I : interp) (content : path -> list row) (prune : list cpred -> path -> bool)
         (answer : Type) (engine : list pred -> list row -> answer) (post : list row -> answer)
         (h : list cop) (typechecks : tskind -> bool) (st : qnode) (data : tskind)
         (now : Z) (fs : list pred),
  hist_ok h ->
  (* C06 *) (forall p m r, In (p, m) (spec_run h) -> In r (content p) ->
               m_min m <= r_ts r <= m_max m /\ in_i64 (r_ts r) = true) ->
  (* C12 *) (forall cs p r, In r (content p) ->
               (forall c, In c cs -> csem I c r = Some true) -> prune cs p = true) ->
  (* DataFusion *) (forall fs rows, engine fs rows = post (filter (sat_all I fs) rows)) ->
  (* DataFusion *) (forall rows rows', Permutation rows rows' -> post rows = post rows') ->
  finite_window I fs ->
  (exists sel, select_chunks (s3_get (s3_run h)) prune now fs = Done sel /\
     (known_empty_selection_schema st data sel = false ->
      snd (run_query typechecks (engine fs) content st data sel)
      = full_scan typechecks (engine fs) content data (live_paths h))) /\
  (exists sel, select_chunks (local_get (local_run h)) no_gate now fs = Done sel /\
     (known_empty_selection_schema st data sel = false ->
      snd (run_query typechecks (engine fs) content st data sel)
      = full_scan typechecks (engine fs) content data (live_paths h))).
Proof. exact run_query_eq_full_scan_modulo_known. Qed.
Print Assumptions C04_modulo_known.

(* Adaptive indexing only counts usage: same answer as the plain execution. *)
Theorem C04_adaptive_indexing_observation_only :
  forall (A : Type) (exec : list row -> A) (v i : N) (st : idx_counters) (rows : list row),
  snd (execute_with_indexes exec v i st rows) = exec rows.
Proof. exact @execute_with_indexes_same_answer. Qed.
Print Assumptions C04_adaptive_indexing_observation_only.

(* The scale factors written in extract_timestamp_value (regenerated from the
   Rust source on every run) are the nanoseconds per unit. *)
Theorem C04_timestamp_scales_exact : forall u, code_scale u = unit_nanos u.
Proof. exact code_scale_exact. Qed.
Print Assumptions C04_timestamp_scales_exact.
