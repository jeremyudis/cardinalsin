(* C10 — Concurrent queries do not affect each other's results.
   Statements only; every proof is `exact <lemma>`; assumptions printed. *)
From CS Require Import Base.Prelude Model.QueryBind Proofs.QueryBindProofs.

(* For any number of queries with arbitrary selected chunk sets and EVERY
   interleaving of their atomic steps (lock, register, pause point, plan, unlock,
   execute; a query waiting for the lock does not move): the table provider a query's
   plan captures is the one built from its own chunk set -- never the set
   selected for another query. *)
Theorem C10_captured_own :
  forall (sets : list (qid * chunkset)) (ids sched : list qid) (i : qid) (c : chunkset),
    captured (run proto_fixed sets sched (init ids)) i = Some c -> c = sel sets i.
Proof. exact captured_own. Qed.
Print Assumptions C10_captured_own.

(* ... and its execution scans exactly that set. *)
Theorem C10_result_own :
  forall (sets : list (qid * chunkset)) (ids sched : list qid) (i : qid) (c : chunkset),
    result (run proto_fixed sets sched (init ids)) i = Some c -> c = sel sets i.
Proof. exact result_own. Qed.
Print Assumptions C10_result_own.

(* Result under concurrency = result alone: two runs with different company and
   different schedules (e.g. the query alone) in which the query completes
   scan the same chunk set. *)
Theorem C10_schedule_independent :
  forall (sets : list (qid * chunkset)) (ids ids' sched sched' : list qid) (i : qid) (c c' : chunkset),
    result (run proto_fixed sets sched (init ids)) i = Some c ->
    result (run proto_fixed sets sched' (init ids')) i = Some c' ->
    c = c'.
Proof. exact schedule_independent. Qed.
Print Assumptions C10_schedule_independent.

(* The same on a node whose table is already bound to any chunk set [t] by
   earlier queries. *)
Theorem C10_result_own_on_used_node :
  forall (sets : list (qid * chunkset)) (t : chunkset) (ids sched : list qid) (i : qid) (c : chunkset),
    result (run proto_fixed sets sched (init_bound t ids)) i = Some c -> c = sel sets i.
Proof. exact result_own_bound. Qed.
Print Assumptions C10_result_own_on_used_node.

(* Histories with failures: any set of queries whose binding fails (a read error
   while the schema of their chunk files is inferred: the shared binding and its
   bookkeeping stay as they were) and query futures dropped at any point, in any
   interleaving with the steps of the other queries, from any previously bound
   table -- every query that completes scanned its own chunk set.  In
   particular a retry after a failed binding is not evaluated against the
   previous query's chunks. *)
Theorem C10_result_own_with_failed_and_dropped_queries :
  forall (faults : list qid) (sets : list (qid * chunkset)) (t : chunkset) (ids : list qid) (evs : list ev) (i : qid) (c : chunkset),
    result (run_ev faults proto_fixed sets evs (init_bound t ids)) i = Some c -> c = sel sets i.
Proof. exact result_own_faulty. Qed.
Print Assumptions C10_result_own_with_failed_and_dropped_queries.

(* ... and the bookkeeping of bound paths always equals the bound table. *)
Theorem C10_bookkeeping_matches_binding :
  forall (faults : list qid) (sets : list (qid * chunkset)) (t : chunkset) (ids : list qid) (evs : list ev),
    tbl (run_ev faults proto_fixed sets evs (init_bound t ids)) = paths (run_ev faults proto_fixed sets evs (init_bound t ids)).
Proof. exact paths_match_table. Qed.
Print Assumptions C10_bookkeeping_matches_binding.

(* The same for the start / resume / cancel commands through which the harness drives
   the real query node (they are compositions of the same steps). *)
Theorem C10_commands_result_own :
  forall (sets : list (qid * chunkset)) (ids : list qid) (cs : list cmd) (i : qid) (c : chunkset),
    result (run_cmds [] proto_fixed sets cs [] (init ids)) i = Some c -> c = sel sets i.
Proof. exact cmds_result_own. Qed.
Print Assumptions C10_commands_result_own.

(* ... also when bindings fail ([faults]) and commands cancel queries, from any
   previously bound table. *)
Theorem C10_commands_result_own_on_used_node :
  forall (faults : list qid) (sets : list (qid * chunkset)) (t : chunkset) (ids : list qid) (cs : list cmd) (i : qid) (c : chunkset),
    result (run_cmds faults proto_fixed sets cs [] (init_bound t ids)) i = Some c -> c = sel sets i.
Proof. exact cmds_result_own_bound. Qed.
Print Assumptions C10_commands_result_own_on_used_node.

(* The code before the repair released the lock before planning:
   Reg A . Reg B . Plan A evaluates A against B's chunk set. *)
Theorem C10_refuted_before_fix :
  result (run proto_unlocked_plan w_sets w_sched (init [1%N; 2%N])) 1%N = Some [2%N; 3%N] /\
  sel w_sets 1%N = [1%N; 2%N].
Proof. exact refuted_unlocked_plan. Qed.
Print Assumptions C10_refuted_before_fix.
