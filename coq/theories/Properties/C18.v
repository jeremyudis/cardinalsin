(* C18 — Live-tail delivery matches the subscription's filter.
   Statements only, each closed by `exact` of what Proofs/LiveFilterProofs.v
   proves; assumptions printed.

   Model: Model/LiveFilter.v (QueryFilter::from_sql / apply after the two fix:
   commits; TopicFilter::matches; FilteredReceiver over the broadcast queue).
   Full statement of the property: for every flushed batch and every WHERE
   clause built from the supported comparison / AND / OR forms the subscriber
   receives exactly the rows at or after the merge point that satisfy the
   clause, once, in flush order; a topic subscription receives a batch iff its
   metadata satisfies the topic filter.  The live-tail half is proved for all
   clauses whose literals are compared with columns of a physical type the
   filter handles (number/number in any Int64/Float64 mix, string/Utf8); the
   remaining combinations are the open known class "type-mismatch"
   (C18_refuted_type_mismatch, C18_modulo_known). *)
From CS Require Import Base.Prelude Model.LiveFilter Proofs.LiveFilterProofs.
Open Scope Z_scope.

(* Topic subscription: for every filter expression (nested And / Or lists
   included), every interleaving of sends and receive calls of a subscriber
   that keeps up, the delivered payloads are exactly those of the sent batches
   whose metadata matches, in send order, each once. *)
Theorem C18_topic_exact :
  forall (P : Type) (f : tfilter) (evs : list (tevent P)),
  delivered f evs = map snd (filter (fun x => matches f (fst x)) (sends evs)).
Proof. exact topic_exact. Qed.
Print Assumptions C18_topic_exact.

(* ... and `matches` decides the declarative meaning of the filter: shard equal,
   tenant equal, some batch metric listed, all / any of the sub-filters. *)
Theorem C18_topic_matches_meaning :
  forall (m : bmeta) (f : tfilter), matches f m = true <-> tsat m f.
Proof. exact matches_tsat. Qed.
Print Assumptions C18_topic_matches_meaning.

(* Live tail, one flushed batch: apply (from_sql WHERE) keeps exactly the rows
   with timestamp >= merge that satisfy the clause under SQL three-valued
   logic, for arbitrary AND / OR / parenthesis nesting, both operand orders,
   signed literals, Int64 / Float64 / Utf8 columns with nulls. *)
Theorem C18_live_exact :
  forall (sel : option sexpr) (b : batch) (merge : Z),
  wf_batch b = true -> ts_col_ok b = true -> clause_ok sel b ->
  apply (from_sql sel) b merge = spec_apply sel b merge.
Proof. exact live_exact. Qed.
Print Assumptions C18_live_exact.

(* The same for the whole live tail of a keeping-up subscriber: batch by batch
   in flush order, batches without a satisfying row skipped. *)
Theorem C18_live_tail_exact :
  forall (sel : option sexpr) (merge : Z) (received : list batch),
  Forall (fun b => wf_batch b = true /\ ts_col_ok b = true /\ clause_ok sel b) received ->
  live_tail (from_sql sel) merge received = spec_tail sel merge received.
Proof. exact live_tail_exact. Qed.
Print Assumptions C18_live_tail_exact.

(* The subscription point is the return of the streaming call: for every
   interleaving of flushes and iterations of the forwarding task after it
   (flushes may all precede the task's first live iteration — it is still
   handing over the historical result), the consumer gets exactly the specified
   rows of every batch flushed since, each once, in flush order. *)
Theorem C18_executor_exact :
  forall (sel : option sexpr) (merge : Z) (evs : list xevent),
  Forall (fun b => wf_batch b = true /\ ts_col_ok b = true /\ clause_ok sel b) (xflushes evs) ->
  xdelivered (from_sql sel) merge evs = spec_tail sel merge (xflushes evs).
Proof. exact executor_exact. Qed.
Print Assumptions C18_executor_exact.

(* Row form of the same: a batch is delivered iff some row is wanted (at or
   after the merge point and satisfying the clause); it has one row per wanted
   original row, in batch order, and its k-th row carries in every column the
   cell of the k-th wanted row — each wanted row once, nothing else. *)
Theorem C18_live_rows_exact :
  forall (sel : option sexpr) (b : batch) (merge : Z),
  wf_batch b = true -> ts_col_ok b = true -> clause_ok sel b ->
  match apply (from_sql sel) b merge with
  | Some fb => b_rows fb = length (wanted sel b merge) /\ wanted sel b merge <> nil /\
               forall name k, cell fb name k =
                              match nth_error (wanted sel b merge) k with
                              | Some j => cell b name j
                              | None => None
                              end
  | None => wanted sel b merge = nil
  end.
Proof. exact live_rows_exact. Qed.
Print Assumptions C18_live_rows_exact.

(* What "the rows the mask selects" means: the k-th delivered row is the
   original row at the k-th kept index ... *)
Theorem C18_delivered_rows :
  forall (mask : list bool) (b : batch) (name : str) (k : nat),
  wf_batch b = true -> length mask = b_rows b ->
  cell (filter_batch mask b) name k =
  match nth_error (kept_indices mask) k with Some j => cell b name j | None => None end.
Proof. exact filter_batch_cells. Qed.
Print Assumptions C18_delivered_rows.

(* ... and the kept indices are the selected positions in ascending order
   (each once). *)
Theorem C18_kept_in_order :
  forall (mask : list bool),
  kept_indices mask = filter (fun i => nth i mask false) (seq 0 (length mask)) /\
  NoDup (kept_indices mask).
Proof. exact (fun mask => conj (kept_indices_filter mask) (kept_indices_nodup mask)). Qed.
Print Assumptions C18_kept_in_order.

(* Open known finding: a comparison between a literal and a column of a type
   the live filter does not pair it with is skipped — every row is delivered
   although none satisfies the clause. *)
Theorem C18_refuted_type_mismatch :
  exists (w : sexpr) (b : batch) (merge : Z),
    supported w = true /\ cols_present w b = true /\ wf_batch b = true /\ ts_col_ok b = true /\
    known_class (Some w) b = true /\
    apply (from_sql (Some w)) b merge = Some b /\ spec_apply (Some w) b merge = None.
Proof. exact refuted_type_mismatch. Qed.
Print Assumptions C18_refuted_type_mismatch.

(* Outside that class the supported clauses (with their columns present, on a
   well-formed batch) are exact; NOT, IN, BETWEEN ... are not `supported` and
   nothing is proved about them. *)
Theorem C18_modulo_known :
  forall (w : sexpr) (b : batch) (merge : Z),
  supported w = true -> cols_present w b = true ->
  wf_batch b = true -> ts_col_ok b = true ->
  known_class (Some w) b = false ->
  apply (from_sql (Some w)) b merge = spec_apply (Some w) b merge.
Proof. exact live_modulo_known. Qed.
Print Assumptions C18_modulo_known.
