(* C14 — A shard split can be resumed from any interruption and conserves data.
   Statements only; every proof is `exact <lemma>`; assumptions printed.

   Vocabulary (Model/Split.v, Proofs/SplitProofs.v):
   - a *script* is a list of fault plans: the first for execute_split, the
     others for successive resume_split calls; a plan maps request indices of
     that run to fail-before / fail-after / crash-before / crash-after;
     `script_state arg s0 script` is the durable state after running it;
   - `s0 arg chunks` is the world before the split (active old shard `arg`,
     its chunks registered and stored); `wf_input` = chunk ids distinct, old
     shard active;
   - `FinalSt arg s`: no progress file, no split state, two active new shards
     covering [lo, split) / [split, hi) and [min, split] / [split, max], the old
     shard pending deletion with its ranges unchanged;
   - `conserve arg chunks s`: the rows served by the lower (upper) new shard are
     a permutation of the old rows below (at or above) the split point;
   - `first_blocked pl`: the plan stops request 0 of the initial run before it
     takes effect — then nothing ever happened (C14_never_began). *)
From CS Require Import Base.Prelude Model.Split Proofs.SplitData Proofs.SplitProofs.
Open Scope Z_scope.

(* For EVERY fault script — any number of interrupted runs, any faults in each,
   nested interruptions included — whose initial run got as far as its first
   request: one further fault-free resume returns Ok and leaves the system in
   the final state with the data conserved. *)
Theorem C14_resume_reaches_final_and_conserves :
  forall arg chunks pl r, wf_input arg chunks -> ~ first_blocked pl ->
  exists w b, resume (fresh (script_state arg (s0 arg chunks) (pl :: r)) []) = (w, ROk b) /\
              FinalSt arg (w_st w) /\ conserve arg chunks (w_st w).
Proof. exact final_after_any_started_script. Qed.
Print Assumptions C14_resume_reaches_final_and_conserves.

(* the same in the "resume^n" form (n = 1 suffices) *)
Theorem C14_exists_n_resumes :
  forall arg chunks pl r, wf_input arg chunks -> ~ first_blocked pl ->
  exists n, let s := resumes_state (script_state arg (s0 arg chunks) (pl :: r)) (repeat [] n) in
            FinalSt arg s /\ conserve arg chunks s.
Proof. exact exists_n_resumes_reach_final. Qed.
Print Assumptions C14_exists_n_resumes.

(* Resumable holds of every reachable state, whatever the script (the initial
   run may have been stopped at once): a fault-free resume returns Ok and ends
   in FinalSt /\ conserve, or finds the untouched initial world. *)
Theorem C14_resumable_after_any_script :
  forall arg chunks script, wf_input arg chunks ->
  Resumable arg chunks (script_state arg (s0 arg chunks) script).
Proof. exact resumable_after_any_script. Qed.
Print Assumptions C14_resumable_after_any_script.

(* the invariant behind it: it holds initially ... *)
Theorem C14_invariant_reachable :
  forall arg chunks script, wf_input arg chunks ->
  Inv arg chunks (script_state arg (s0 arg chunks) script).
Proof. exact reachable_inv. Qed.
Print Assumptions C14_invariant_reachable.

(* ... every resume, failing or not, under any plan, preserves it ... *)
Theorem C14_every_run_preserves_invariant :
  forall arg chunks s pl, wf_input arg chunks -> Inv arg chunks s ->
  Inv arg chunks (w_st (fst (run_resume s pl))).
Proof. exact resume_preserves_inv. Qed.
Print Assumptions C14_every_run_preserves_invariant.

(* ... and it implies Resumable. *)
Theorem C14_invariant_implies_resumable :
  forall arg chunks s, wf_input arg chunks -> Inv arg chunks s -> Resumable arg chunks s.
Proof. exact Inv_Resumable. Qed.
Print Assumptions C14_invariant_implies_resumable.

(* if the very first request of the initial run is stopped before it takes
   effect, nothing has happened and nothing ever will by resuming *)
Theorem C14_never_began :
  forall arg chunks pl r, wf_input arg chunks -> first_blocked pl ->
  script_state arg (s0 arg chunks) (pl :: r) = s0 arg chunks.
Proof. exact never_began. Qed.
Print Assumptions C14_never_began.

(* No old-shard data is removed before the cut-over has completed. *)
Theorem C14_no_old_data_removed_before_cutover :
  forall arg chunks script, wf_input arg chunks ->
  let s := script_state arg (s0 arg chunks) script in
  intact arg chunks s \/ CutoverComplete arg s.
Proof. exact no_old_data_removed_before_cutover. Qed.
Print Assumptions C14_no_old_data_removed_before_cutover.

(* conserve, spelled out per row: served exactly as often as the old shard held
   it, by the shard on its side of the split point only *)
Theorem C14_conserve_exactly_once :
  forall arg chunks s, conserve arg chunks s ->
  forall r,
    (count_occ row_eq_dec (rows_of SA s) r + count_occ row_eq_dec (rows_of SB s) r
     = count_occ row_eq_dec (old_rows chunks) r)%nat /\
    (In r (rows_of SA s) -> row_ts r < pt arg) /\
    (In r (rows_of SB s) -> pt arg <= row_ts r).
Proof. exact conserve_exactly_once. Qed.
Print Assumptions C14_conserve_exactly_once.

(* the final state is stable under further resumes, whatever their plan *)
Theorem C14_final_stable :
  forall arg s pl, FinalSt arg s -> w_st (fst (run_resume s pl)) = s.
Proof. exact final_stable. Qed.
Print Assumptions C14_final_stable.
