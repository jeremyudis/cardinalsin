(* C08 — Compaction leases are exclusive while live and reclaimable once expired.
   Statements only; every proof is `exact <lemma>`; assumptions printed.

   Model: Model/Lease.v (both metadata backends), retry machine Base/CasProto.v.
   Times are in milliseconds of the one shared clock; TTL, renewal extension,
   renewal period, retry bound and backoff come from the Rust sources
   (generated/Consts.v).

     LInv v        unique lease ids  /\  StrongExcl v
     StrongExcl v  any two DISTINCT ACTIVE leases of v have disjoint chunk
                   lists (expired or not: stronger than the property)
     Excl t v      any two distinct leases of v that are active and unexpired
                   at instant t have disjoint chunk lists (the property) *)
From CS Require Import Base.Prelude Base.CasProto Model.Lease Proofs.LeaseProofs.
Open Scope Z_scope.

(* Object-store backend.  For every number of nodes, all programs of lease
   operations, every schedule at object-store-request granularity with clock
   ticks anywhere (first-write races and retry exhaustion included): every
   version of compaction-leases.json ever written, and whatever can be read at
   the end of the schedule (the schedule being arbitrary: at any moment),
   satisfies the exclusion at every instant t. *)
Theorem C08_exclusive_object_store :
  forall (v0 : option table) (now0 : Z) (progs : nat -> list lop) (sched : list label),
  opt_inv v0 ->
  let s := s3_run sched (s3_init v0 now0 progs) in
  (forall k, In k (s_log s) -> LInv (k_val k) /\ forall t, Excl t (k_val k)) /\
  (forall v, cur_val s = Some v -> LInv v /\ forall t, Excl t v).
Proof. exact (excl_object_store s3_cfg s3_retries). Qed.
Print Assumptions C08_exclusive_object_store.

(* In-memory backend: every history of operations and clock ticks. *)
Theorem C08_exclusive_in_memory :
  forall (now0 : Z) (h : list hstep),
  let s := local_run now0 h in
  LInv (ls_tab s) /\ forall t, Excl t (ls_tab s).
Proof. exact excl_local_run. Qed.
Print Assumptions C08_exclusive_in_memory.

(* The operation bodies that both backend models execute — written with the
   comparison expressions translated from the Rust sources on every run
   (generated/Funs.v) — are the bodies `lease_body` that the clauses below
   speak about. *)
Theorem C08_code_comparisons_are_the_named_predicates :
  forall b cfg now op t, lease_body_code b cfg now op t = lease_body b cfg now op t.
Proof. exact body_code_eq. Qed.
Print Assumptions C08_code_comparisons_are_the_named_predicates.

(* Either backend: an acquire goes through (object store: reaches its
   conditional PUT) and yields a live lease with expires_at = now + TTL exactly
   when no lease that is live at `now` shares a chunk with the request. *)
Theorem C08_acquire_succeeds_iff_no_live_overlap :
  forall b cfg now id h cs lv t, 0 < acq_ttl cfg ->
  ((exists t' l, lease_body b cfg now (OAcquire id h cs lv) t = Write t' (RLease id l) /\
                 aget N.eqb id t' = Some l /\ live now l = true /\
                 l_holder l = h /\ l_chunks l = cs /\ l_expires l = now + acq_ttl cfg)
   <-> (forall j l, In (j, l) t -> live now l = true -> ~ share cs (l_chunks l))).
Proof. exact acquire_succeeds_iff. Qed.
Print Assumptions C08_acquire_succeeds_iff_no_live_overlap.

(* A lease whose holder stopped renewing becomes acquirable after its TTL. *)
Theorem C08_expired_is_acquirable :
  forall b cfg now id h cs lv t, 0 < acq_ttl cfg ->
  (forall j l, In (j, l) t -> share cs (l_chunks l) -> is_active l = false \/ l_expires l <= now) ->
  exists t' l, lease_body b cfg now (OAcquire id h cs lv) t = Write t' (RLease id l) /\
               aget N.eqb id t' = Some l /\ live now l = true /\
               l_holder l = h /\ l_chunks l = cs /\ l_expires l = now + acq_ttl cfg.
Proof. exact expired_is_acquirable. Qed.
Print Assumptions C08_expired_is_acquirable.

(* A holder whose lease was reclaimed (or finished) is told when it next
   renews: renew returns an error exactly when the id is absent or terminal... *)
Theorem C08_reclaimed_holder_is_told :
  forall b cfg now id t,
  (exists o, lease_body b cfg now (ORenew id) t = NoWrite o /\ (o = ENotFound \/ o = ENotActive))
  <-> (aget N.eqb id t = None \/ exists l, aget N.eqb id t = Some l /\ is_active l = false).
Proof. exact renew_error_iff. Qed.
Print Assumptions C08_reclaimed_holder_is_told.

(* ... and once the id has left the file it never comes back: along every
   sequence of committed operations no renew of it commits and it is absent
   from every later version (lease ids are UUIDs: no acquire re-uses it). *)
Theorem C08_reclaimed_never_renewed :
  forall (id : N) (log : list (commit table lop lout)) (v : option table),
  chain s3_decide v log ->
  aget N.eqb id (tbl v) = None ->
  Forall (fun k => not_acquire_of id (k_op k)) log ->
  Forall (fun k => k_op k <> ORenew id /\ aget N.eqb id (k_val k) = None) log.
Proof. exact (reclaimed_never_renewed s3_cfg). Qed.
Print Assumptions C08_reclaimed_never_renewed.

(* A lease that is renewed in time is never handed to someone else
   (object-store backend, every schedule): if every commit after the acquire is
   decided before the lease's current deadline (acquire time + TTL, then last
   own renew + extension), nobody completes/fails it and no acquire re-uses
   its id, then in every later version it is still present, active, with the
   same holder and chunks, and no other active lease shares a chunk with it. *)
Theorem C08_renewed_in_time_not_stolen_object_store :
  forall (v0 : option table) (now0 : Z) (progs : nat -> list lop) (sched : list label),
  opt_inv v0 ->
  let s := s3_run sched (s3_init v0 now0 progs) in
  forall pre k0 post id h cs lv,
    s_log s = pre ++ k0 :: post ->
    k_op k0 = OAcquire id h cs lv ->
    in_time s3_cfg id (k_now k0 + acq_ttl s3_cfg) (log_ops post) ->
    Forall (fun k => (exists e, holds id h cs e (k_val k)) /\
                     forall j l2, In (j, l2) (k_val k) -> j <> id -> is_active l2 = true ->
                                  ~ share cs (l_chunks l2)) post.
Proof. exact (renewed_in_time_not_stolen s3_cfg s3_retries). Qed.
Print Assumptions C08_renewed_in_time_not_stolen_object_store.

Theorem C08_renewed_in_time_not_stolen_in_memory :
  forall (id hd : N) (cs : list N) (h : list hstep) (s : lstate) (e : Z),
  LInv (ls_tab s) ->
  holds id hd cs e (ls_tab s) ->
  in_time local_cfg id e (timed (ls_now s) h) ->
  let s' := local_run_from local_cfg h s in
  (exists e', holds id hd cs e' (ls_tab s')) /\
  forall j l2, In (j, l2) (ls_tab s') -> j <> id -> is_active l2 = true -> ~ share cs (l_chunks l2).
Proof. exact (renewed_in_time_in_memory local_cfg). Qed.
Print Assumptions C08_renewed_in_time_not_stolen_in_memory.

(* The holder's schedule satisfies "in time": renewal period + the longest
   total backoff of a renew is below every TTL / extension in the code, so the
   next renew round is decided before the deadline set by the previous one. *)
Theorem C08_renew_period_within_ttl :
  forall s d d' : Z,
  s <= d -> d' <= s + renew_period_ms + backoff_total_ms ->
  d' < d + renew_ext s3_cfg /\ d' < d + acq_ttl s3_cfg /\
  d' < d + renew_ext local_cfg /\ d' < d + acq_ttl local_cfg.
Proof. exact renew_period_within_ttl. Qed.
Print Assumptions C08_renew_period_within_ttl.

(* The executable predicate used by the harness-side model output is Excl. *)
Theorem C08_exclb_is_excl : forall t v, exclb t v = true <-> Excl t v.
Proof. exact exclb_iff. Qed.
Print Assumptions C08_exclb_is_excl.
