(* C16 — The tiered cache is transparent.
   Statements only; every proof is `exact <lemma>`; assumptions printed.

   Model: Model/Cache.v (backing store = write-once association list that only
   grows; L1 / optional L2 = partial maps; an eviction oracle that may drop any
   entry of any tier between any two steps and may let any single lookup come
   back empty (EStepMiss); TieredCache::get_or_fetch and the
   CachedObjectStore entry points as step sequences; any number of readers
   interleaved with each other, with evictions and with new-object writes). *)
From CS Require Import Base.Prelude Model.Cache Proofs.CacheProofs.
Open Scope N_scope.

(* Invariant: in every reachable state — after ANY schedule of reader steps,
   evictions, arrivals and new-object writes — whatever L1 or L2 holds under a
   key is what the backing store holds under that key. *)
Theorem C16_cached_subset_store :
  forall (sched : list event) (st0 : store) (l2_on : bool),
  let s := run sched (init st0 l2_on) in
  (forall k b, aget N.eqb k (s_l1 s) = Some b ->
     exists o, aget N.eqb k (s_store s) = Some o /\ o_data o = b) /\
  (forall m k b, s_l2 s = Some m -> aget N.eqb k m = Some b ->
     exists o, aget N.eqb k (s_store s) = Some o /\ o_data o = b).
Proof. exact cached_subset_store. Qed.
Print Assumptions C16_cached_subset_store.

(* Transparency, all interleavings: a reader arriving after any schedule `pre`
   with any request q (whole / get_opts with any options / ranged / head),
   followed by ANY continuation `post` (steps of this and of other readers in
   any order, lookups that come back empty, evictions of anything at any time,
   further readers, new-object writes): if it has completed, its result is exactly what the backing store
   itself answers to q (`store_read`; error kinds re-wrapped by `view` on the
   cached path) on a store snapshot `mid` lying between its arrival and now. *)
Theorem C16_transparent :
  forall (pre : list event) (q : req) (post : list event) (st0 : store) (l2_on : bool),
  let s1 := run pre (init st0 l2_on) in
  let s := run post (apply_event s1 (EStart q)) in
  forall r, result_of s (length (s_threads s1)) = Some r ->
  exists mid, prefix (s_store s1) mid /\ prefix mid (s_store s) /\
              r = view q (store_read mid q).
Proof. exact transparent. Qed.
Print Assumptions C16_transparent.

(* ... and when the object existed at arrival, that answer is the answer of
   the store as it is now and as it was at arrival (write-once makes it stable). *)
Theorem C16_transparent_existing :
  forall (pre : list event) (q : req) (post : list event) (st0 : store) (l2_on : bool),
  let s1 := run pre (init st0 l2_on) in
  let s := run post (apply_event s1 (EStart q)) in
  forall r o, result_of s (length (s_threads s1)) = Some r ->
  aget N.eqb (rkey q) (s_store s1) = Some o ->
  r = view q (store_read (s_store s) q) /\ r = view q (store_read (s_store s1) q).
Proof. exact transparent_existing. Qed.
Print Assumptions C16_transparent_existing.

(* A read of a key the backing store does not hold, even now, fails (NotFound,
   wrapped on the cached path). *)
Theorem C16_absent_fails :
  forall (pre : list event) (q : req) (post : list event) (st0 : store) (l2_on : bool),
  let s1 := run pre (init st0 l2_on) in
  let s := run post (apply_event s1 (EStart q)) in
  forall r, result_of s (length (s_threads s1)) = Some r ->
  aget N.eqb (rkey q) (s_store s) = None ->
  r = view q (Failed E_NOTFOUND).
Proof. exact absent_fails. Qed.
Print Assumptions C16_absent_fails.

(* A successful whole-object read returns exactly the stored bytes of its key. *)
Theorem C16_whole_exact :
  forall (pre : list event) (k : key) (post : list event) (st0 : store) (l2_on : bool),
  let s1 := run pre (init st0 l2_on) in
  let s := run post (apply_event s1 (EStart (QGet k))) in
  forall x, result_of s (length (s_threads s1)) = Some (Done x) ->
  exists o, aget N.eqb k (s_store s) = Some o /\ x = whole_resp (o_data o).
Proof. exact whole_exact. Qed.
Print Assumptions C16_whole_exact.

(* A successful ranged read returns exactly the requested slice. *)
Theorem C16_range_exact :
  forall (pre : list event) (k : key) (a b : N) (post : list event) (st0 : store) (l2_on : bool),
  let s1 := run pre (init st0 l2_on) in
  let s := run post (apply_event s1 (EStart (QGetRange k a b))) in
  forall x, result_of s (length (s_threads s1)) = Some (Done x) ->
  exists o lo hi, aget N.eqb k (s_store s) = Some o /\
    as_range (RBounded a b) (lenN (o_data o)) = Some (lo, hi) /\
    x = mkResp (slice lo hi (o_data o)) lo hi (lenN (o_data o)).
Proof. exact range_exact. Qed.
Print Assumptions C16_range_exact.

(* `slice` is defined by recursion over N counters; it is the usual firstn/skipn. *)
Theorem C16_slice_is_firstn_skipn :
  forall (lo hi : N) (l : bytes),
  slice lo hi l = firstn (N.to_nat (hi - lo)) (skipn (N.to_nat lo) l).
Proof. exact slice_spec. Qed.
Print Assumptions C16_slice_is_firstn_skipn.

(* "completed" is not vacuous: in any schedule that gives the reader
   max_steps (= 5) of its own steps, it has completed. *)
Theorem C16_reads_complete :
  forall (pre : list event) (q : req) (post : list event) (st0 : store) (l2_on : bool),
  let s1 := run pre (init st0 l2_on) in
  let s := run post (apply_event s1 (EStart q)) in
  (max_steps <= steps_of (length (s_threads s1)) post)%nat ->
  exists r, result_of s (length (s_threads s1)) = Some r.
Proof. exact reads_complete. Qed.
Print Assumptions C16_reads_complete.

(* Sequential histories: every read of every history of new-object
   writes and whole / ranged / conditional / head reads completes and returns
   exactly the backing store's answer at that point, for every choice of
   evictions before every step and of lookups that come back empty; the store ends up as the writes alone make it. *)
Theorem C16_transparent_sequential :
  forall (h : list sop) (st0 : store) (l2_on : bool),
  snd (seq_run h (init st0 l2_on) []) = spec_results h st0 /\
  s_store (fst (seq_run h (init st0 l2_on) [])) = spec_store h st0.
Proof. exact transparent_sequential. Qed.
Print Assumptions C16_transparent_sequential.

(* Write-once: a new-object write never changes what an existing key holds. *)
Theorem C16_write_once :
  forall (st : store) (k : key) (o : obj) (k' : key) (o' : obj),
  aget N.eqb k' st = Some o' -> aget N.eqb k' (fst (store_put st k o)) = Some o'.
Proof. exact store_put_write_once. Qed.
Print Assumptions C16_write_once.

(* Two different objects never share a cache key. *)
Theorem C16_cache_key_injective :
  forall k1 k2 : key, cache_key k1 = cache_key k2 -> k1 = k2.
Proof. exact cache_key_inj. Qed.
Print Assumptions C16_cache_key_injective.
