(* C07 — Time-range chunk lookup is exact, on both metadata backends.
   Statements only; every proof is `exact <lemma>`; assumptions printed. *)
From CS Require Import Base.Prelude Model.Catalog Proofs.CatalogProofs Proofs.CatalogTie.
From CSGen Require Import Consts Funs.
Open Scope Z_scope.

(* For every history of register / delete / complete-compaction operations
   whose registered intervals have min <= max, and EVERY query range (s, e)
   (inverted ranges included), the object-store backend returns exactly the
   live chunks whose closed interval meets the closed range, each once. *)
Theorem C07_exact_object_store :
  forall (h : list cop) (s e : Z), hist_ok h ->
  match s3_get (s3_run h) s e with
  | Done l => NoDup (map fst l) /\
              forall p m, In (p, m) l <-> In (p, m) (spec_get (spec_run h) s e)
  | _ => False
  end.
Proof. exact s3_get_exact. Qed.
Print Assumptions C07_exact_object_store.

(* The same for the in-memory backend. *)
Theorem C07_exact_in_memory :
  forall (h : list cop) (s e : Z), hist_ok h ->
  match local_get (local_run h) s e with
  | Done l => NoDup (map fst l) /\
              forall p m, In (p, m) l <-> In (p, m) (spec_get (spec_run h) s e)
  | _ => False
  end.
Proof. exact local_get_exact. Qed.
Print Assumptions C07_exact_in_memory.

(* Both backends give the same answer for the same history. *)
Theorem C07_backends_agree :
  forall (h : list cop) (s e : Z), hist_ok h ->
  match s3_get (s3_run h) s e, local_get (local_run h) s e with
  | Done a, Done b => forall p m, In (p, m) a <-> In (p, m) b
  | _, _ => False
  end.
Proof. exact backends_agree. Qed.
Print Assumptions C07_backends_agree.

(* The chunk map that get_chunk looks up and list_chunks enumerates is,
   key by key, the live map of the specification. *)
Theorem C07_live_map_object_store :
  forall (h : list cop) (p : path), hist_ok h ->
  option_map e_meta (aget N.eqb p (c_chunks (s3_run h))) = aget N.eqb p (spec_run h).
Proof. exact s3_list_exact. Qed.
Print Assumptions C07_live_map_object_store.

Theorem C07_live_map_in_memory :
  forall (h : list cop) (p : path), hist_ok h ->
  aget N.eqb p (l_chunks (local_run h)) = aget N.eqb p (spec_run h).
Proof. exact local_list_exact. Qed.
Print Assumptions C07_live_map_in_memory.

(* The bucket widths used at the different call sites of the code (taken from
   the Rust sources on every run) agree and are positive. *)
Theorem C07_bucket_widths_agree : widths_agree.
Proof. exact widths_agree_holds. Qed.
Print Assumptions C07_bucket_widths_agree.

(* The interval test and the bucket computations of the model are, expression
   for expression, the ones translated from the Rust sources on this run
   (generated/Funs.v): TimeRange::overlaps, both hour_bucket functions and the
   inline bucket computation of get_chunks_with_predicates. *)
Theorem C07_model_functions_are_the_code :
  (forall cmin cmax s e, overlaps cmin cmax s e = Funs.timerange_overlaps cmin cmax s e) /\
  (forall t, bucketw Consts.S3_REGISTER_BUCKET_NANOS t = Funs.s3_hour_bucket t) /\
  (forall s e, bucketw Consts.S3_GET_BUCKET_NANOS s = Funs.s3_get_start_bucket s e /\
               bucketw Consts.S3_GET_BUCKET_NANOS e = Funs.s3_get_end_bucket s e) /\
  (forall t, bucketw Consts.LOCAL_BUCKET_NANOS t = Funs.local_hour_bucket t).
Proof. exact catalog_functions_are_the_code. Qed.
Print Assumptions C07_model_functions_are_the_code.
