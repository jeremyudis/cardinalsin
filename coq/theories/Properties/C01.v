(* C01 — Acknowledged writes survive crashes and storage faults.
   Statements only; every proof is `exact` of what Proofs/IngestDurProofs.v and
   Proofs/IngestDurTie.v establish; assumptions printed.

   `drun c ls (dinit todos)` is the state after the schedule `ls` — any list of
   labels: writer i steps, timer steps, interval ticks, shutdown, ensure_wal
   steps, each possibly carrying a storage / catalog fault that lands before or
   after the effect of the PUT / register_chunk it hits, and crashes — of k
   writers with the write lists `todos`, on the abstract WAL of
   Model/IngestDur.v (DCrashRot: a crash that leaves a new, empty tail segment).

   Full statement (FALSE of the code as it is, see the three refutations):
     forall c todos ls, Durable (drun c ls (dinit todos))
   where Durable s := every row of every write that returned Ok is in a
   registered chunk or in a WAL entry newer than the persisted flushed mark
   (= is put back into the buffer by the next ensure_wal). *)
From CS Require Import Base.Prelude Model.Ingest Model.IngestDur Proofs.IngestDurProofs Proofs.IngestDurTie.
From CSGen Require Import Consts Funs.
Open Scope N_scope.

(* Strongest true statement: for every schedule on which the executable
   classifier `known_class` stays 0 (no flush ever reads a last_wal_seq that
   reaches a batch which is buffered, still held by a writer, taken by another
   running flush, waiting to be replayed by a running ensure_wal, or was
   dropped by a failed flush), Durable holds. *)
Theorem C01_modulo_known :
  forall (c : dcfg) (todos : list (list wreq)) (ls : list dlabel),
  known_class c todos ls = 0 ->
  forall e r, In e (acked_sbs (drun c ls (dinit todos))) -> In r (b_rows (snd e)) ->
  In r (dcat_rows (ds_d (drun c ls (dinit todos)))) \/ In r (replay_rows (ds_d (drun c ls (dinit todos)))).
Proof. exact durable_modulo_known. Qed.
Print Assumptions C01_modulo_known.

(* ... and in every intermediate state of such a schedule (so after any crash
   point, any failed or retried flush, any crash-restart-crash sequence). *)
Theorem C01_modulo_known_every_prefix :
  forall (c : dcfg) (todos : list (list wreq)) (l1 l2 : list dlabel),
  known_class c todos (l1 ++ l2) = 0 -> Durable (drun c l1 (dinit todos)).
Proof. exact durable_modulo_known_prefix. Qed.
Print Assumptions C01_modulo_known_every_prefix.

(* Refutation 1 (class 1, in-flight ack): a write acknowledged while another
   writer's flush is between taking the buffer and reading last_wal_seq is
   covered by that flush's mark although it is only buffered. *)
Theorem C01_refuted_inflight_ack :
  ~ Durable (drun (wcfg 2) k1_sched (dinit k1_todos)) /\ known_class (wcfg 2) k1_todos k1_sched = 1.
Proof. exact refuted_inflight_ack. Qed.
Print Assumptions C01_refuted_inflight_ack.

(* Refutation 1b (class 1 with ONE writer): a write whose schema differs from
   the buffered batches stores its own sequence number before the
   schema-change flush it triggers, so that flush marks it as flushed. *)
Theorem C01_refuted_schema_change_ack :
  ~ Durable (drun (wcfg 100) k1s_sched (dinit k1s_todos)) /\ known_class (wcfg 100) k1s_todos k1s_sched = 1.
Proof. exact refuted_schema_change_ack. Qed.
Print Assumptions C01_refuted_schema_change_ack.

(* Refutation 2 (class 2, failed flush): a flush that fails drops the batches
   it took; a later successful flush persists a mark beyond them. *)
Theorem C01_refuted_failed_flush :
  ~ Durable (drun (wcfg 2) k2_sched (dinit k2_todos)) /\ known_class (wcfg 2) k2_todos k2_sched = 2.
Proof. exact refuted_failed_flush. Qed.
Print Assumptions C01_refuted_failed_flush.

(* The runs the harness compares with the implementation (one label = run the
   released task to its next park point) are step-level runs. *)
Theorem C01_park_point_runs_are_runs :
  forall (c : dcfg) (fuel : nat) (ms : list dlabel) (s : dstate),
  exists ls, fold_left (fun s l => dmacro c fuel l s) ms s = drun c ls s.
Proof. exact dmacro_run_is_run. Qed.
Print Assumptions C01_park_point_runs_are_runs.

(* The truncation bounds, the guards and the persisted value in the model's
   flush and recovery steps are the expressions found at the call sites of
   flush_batches / ensure_wal in src/ingester/mod.rs (re-translated into
   generated/Funs.v on every run): `if flushed_up_to > 0`,
   `truncate_before(flushed_up_to)`, `last_flushed_seq.store(flushed_up_to)`,
   `persist_flushed_seq(dir, flushed_up_to)`, `read_entries_after(flushed_seq)`,
   `if flushed_seq > 0 { truncate_before(flushed_seq + 1) }`. *)
Theorem C01_wal_call_sites_are_the_code :
  (forall hw f d v s k,
     dflush_step hw f d v (QTrunc s k) =
     if Funs.ingest_flush_mark_guard (Z.of_N s)
     then Some (if hw then set_segs d (trunc (zN Funs.ingest_flush_truncate_bound s) (d_segs d)) else d,
                v, GPc (QPersist s k))
     else Some (d, v, GOk k)) /\
  (forall hw f d v s k,
     dflush_step hw f d v (QPersist s k) =
     Some (set_flushed d (zN Funs.ingest_flush_persist_value s),
           set_lfs v (zN Funs.ingest_flush_lfs_value s), GPc (QFin k))) /\
  (forall d, replay_sbs d = filter (fun e => zN Funs.ingest_recover_read_after (d_flushed d) <? fst e) (wal_sbs d)) /\
  (forall f d v maxs fl0,
     drstep f d v (QRFinish maxs fl0) =
     (if Funs.ingest_recover_truncate_guard (Z.of_N fl0)
      then set_segs d (trunc (zN Funs.ingest_recover_truncate_bound fl0) (d_segs d)) else d,
      if fl0 <? maxs then set_lws v maxs else v, RUp)).
Proof.
  exact (conj flush_truncate_is_code (conj flush_persist_is_code (conj recover_replay_is_code recover_truncate_is_code))).
Qed.
Print Assumptions C01_wal_call_sites_are_the_code.
