(* C12 — Statistics-based chunk pruning never excludes a matching chunk.
   Statements only; every proof is `exact <lemma>`; assumptions printed.

   Reading.  `eval_stats p st = false` is the verdict "prune" of
   ColumnPredicate::evaluate_against_stats (transcribed in Model/StatsPrune.v
   from the code as it is after the two `fix:` commits).  `in_stats r st`: every
   non-NULL value of row r in a column that has statistics lies within them
   (bounds that are null / boolean / array bound nothing: "mistyped statistics
   = may match"; a NaN is within no numeric bound).  `sat xc xg p r` is the SQL
   three-valued meaning of p on r; Int x Float compares in f64 as the engine
   does; `xc` is what the engine makes of comparisons across type classes
   (string vs number, ...), `xg` what it makes of a BETWEEN / IN whose members
   belong to different type classes — the theorems hold for every xc and xg
   (a BETWEEN / IN node with such a group is put into the known class, so the
   soundness theorems claim nothing about it).
   BETWEEN and IN are coerced as a group (one float member => all compared in f64).

   The full-strength statement
     forall xc xg p st rows, (forall r, In r rows -> in_stats r st) ->
     eval_stats p st = false -> forall r, In r rows -> sat xc xg p r <> TT
   is FALSE of the code: see C12_refuted_int_stats_float_row and
   C12_refuted_float_literal_in_between.  The strongest true statement is
   C12_modulo_known; C12_sound_well_typed is the full statement on well-typed
   inputs (no implicit coercion), where the class cannot occur. *)
From CS Require Import Base.Prelude Base.F64Order Model.StatsPrune Proofs.StatsPruneProofs.
Open Scope Z_scope.

(* Every predicate tree (all six comparisons, IN / NOT IN, BETWEEN, AND / OR /
   NOT), all statistics (missing, mistyped, integer, u64 above i64::MAX, float,
   string), all rows within them: a pruned chunk holds no satisfying row —
   outside the known class [known_mixed]: the two triggers witnessed below, and
   every BETWEEN / IN group whose members belong to different type classes
   (no defect is witnessed for it; what the engine does there is left open). *)
Theorem C12_modulo_known :
  forall (xc : cop -> value -> value -> tv) (xg : list value -> tv)
         (p : pred) (st : stats) (rows : list row),
  (forall r, In r rows -> in_stats r st) ->
  eval_stats p st = false ->
  forall r, In r rows -> known_mixed p st r = false -> sat xc xg p r <> TT.
Proof. exact sound_modulo_known_rows. Qed.
Print Assumptions C12_modulo_known.

(* Known class (open finding), first trigger: integer statistics, integer
   literal, float row value: statistics [2^53+4, 2^53+4], `v <= 2^53+3`, row
   value 2^53+4 as f64.  The code compares literal and statistic in i64 and
   prunes; the engine compares row and literal in f64, where 2^53+3 rounds to
   2^53+4. *)
Theorem C12_refuted_int_stats_float_row :
  exists p st r,
    in_stats r st /\ eval_stats p st = false /\ sat xc_unknown xg_unknown p r = TT /\
    known_mixed p st r = true.
Proof. exact refuted_mixed. Qed.
Print Assumptions C12_refuted_int_stats_float_row.

(* Second trigger: integer column and statistics, but a float literal in the
   same BETWEEN makes the engine compare all three operands in f64:
   `v BETWEEN 0.5 AND 2^53`, statistics [2^53+1, 2^53+1], row 2^53+1. *)
Theorem C12_refuted_float_literal_in_between :
  in_stats w_between_row w_between_stats /\
  eval_stats w_between_pred w_between_stats = false /\
  sat xc_unknown xg_unknown w_between_pred w_between_row = TT /\
  known_mixed w_between_pred w_between_stats w_between_row = true.
Proof. exact refuted_mixed_between. Qed.
Print Assumptions C12_refuted_float_literal_in_between.

(* Full statement for well-typed queries and rows: every column has one type
   (integer, float, string, boolean); row values and the literals compared
   with the column are NULL or of that type.  Statistics are arbitrary. *)
Theorem C12_sound_well_typed :
  forall (xc : cop -> value -> value -> tv) (xg : list value -> tv) (ty : typing)
         (p : pred) (st : stats) (rows : list row),
  pred_typed ty p = true ->
  (forall r, In r rows -> in_stats r st /\ row_typed ty r) ->
  eval_stats p st = false ->
  forall r, In r rows -> sat xc xg p r <> TT.
Proof. exact sound_well_typed. Qed.
Print Assumptions C12_sound_well_typed.

(* get_chunks_with_predicates drops a chunk only if one of the extracted
   predicates is unsatisfiable on every row within the chunk's statistics. *)
Theorem C12_gate_sound :
  forall (xc : cop -> value -> value -> tv) (xg : list value -> tv)
         (preds : list pred) (st : stats) (rows : list row),
  (forall r, In r rows -> in_stats r st) ->
  gate preds st = false ->
  forall r, In r rows ->
    (forall p, In p preds -> known_mixed p st r = false) ->
    exists p, In p preds /\ sat xc xg p r <> TT.
Proof. exact gate_sound. Qed.
Print Assumptions C12_gate_sound.

(* convert_expr_to_predicate: whatever it converts means the same as the
   SQL expression (comparisons, [NOT] IN, BETWEEN, AND / OR / NOT). *)
Theorem C12_convert_exact :
  forall (xc : cop -> value -> value -> tv) (xg : list value -> tv) (e : expr) (p : pred),
  convert e = Some p -> forall r, esat xc xg e r = sat xc xg p r.
Proof. exact convert_exact. Qed.
Print Assumptions C12_convert_exact.

(* Both steps together: a chunk pruned on the converted predicate holds no row
   on which the SQL expression is TRUE (outside the known class). *)
Theorem C12_convert_then_prune_sound :
  forall (xc : cop -> value -> value -> tv) (xg : list value -> tv)
         (e : expr) (p : pred) (st : stats) (rows : list row),
  convert e = Some p ->
  (forall r, In r rows -> in_stats r st) ->
  eval_stats p st = false ->
  forall r, In r rows -> known_mixed p st r = false -> esat xc xg e r <> TT.
Proof. exact convert_then_prune_sound. Qed.
Print Assumptions C12_convert_then_prune_sound.

(* Regression witnesses of the two repaired defects: the code before the fix
   (shared Lt|LtEq and Gt|GtEq arms) pruned statistics [5,9] for `v <= 5` and
   `v >= 9`; the repaired arms keep the chunk. *)
Theorem C12_fixed_end_points :
  in_stats [(w_col, VInt 5)] w_59_stats /\
  eval_stats_shared_arms w_le_pred w_59_stats = false /\
  sat xc_unknown xg_unknown w_le_pred [(w_col, VInt 5)] = TT /\
  in_stats [(w_col, VInt 9)] w_59_stats /\
  eval_stats_shared_arms w_ge_pred w_59_stats = false /\
  sat xc_unknown xg_unknown w_ge_pred [(w_col, VInt 9)] = TT /\
  eval_stats w_le_pred w_59_stats = true /\
  eval_stats w_ge_pred w_59_stats = true.
Proof. exact refuted_shared_arms. Qed.
Print Assumptions C12_fixed_end_points.

(* `v NOT BETWEEN 10 AND 20` used to be converted to BETWEEN and pruned the
   chunk [30,40] whose every row matches; it is no longer converted. *)
Theorem C12_fixed_not_between :
  let e := EBetween (ECol w_col) true (ELit (SInt64 10)) (ELit (SInt64 20)) in
  let st := [(w_col, mkStats (JInt 30) (JInt 40) false)] in
  let r := [(w_col, VInt 35)] in
  exists p, convert_negation_dropped e = Some p /\
    in_stats r st /\ eval_stats p st = false /\ esat xc_unknown xg_unknown e r = TT /\
    convert e = None.
Proof. exact refuted_negation_dropped. Qed.
Print Assumptions C12_fixed_not_between.
