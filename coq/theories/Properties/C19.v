(* C19 — Write routing always terminates on a node that can accept writes.
   Statements only; every proof is `exact <lemma>`; assumptions printed.

   The model (Model/Router.v) follows DistributedWriteRouter::route_write,
   ShardAssignment and NodeRegistry after the commit "fix: write routing rebuilds
   a stale hash ring and bounds its retry instead of recursing forever".
   Histories: register / status change (heartbeat loss) / heartbeat / drain / load /
   remove / health-check sweep / rebalance / route / route while other tasks change the
   registry, under every assignment strategy; the SipHash values
   [H] and the HashMap iteration orders [order] are universally quantified. *)
From CS Require Import Base.Prelude Model.Router Proofs.RouterProofs.
From CSGen Require Import Consts.
Open Scope N_scope.

(* The property in one statement: after EVERY history, under every strategy, for every
   shard, route_write returns either a node that is registered, healthy, of an ingesting
   type and below the load threshold at that moment — and the shard is assigned to exactly
   that node — or an error.  It neither hangs (fuel ROUTE_FUEL = MAX_ROUTE_ATTEMPTS + 1
   loop tests is enough) nor panics. *)
Theorem C19_route_total_and_eligible :
  forall (strat : strategy) (H : hashes) (h : list op) (s : shard) (order : list node),
  match route_write strat H order (run strat H h) s with
  | (st', Done n) =>
      (exists i, aget N.eqb n (st_reg st') = Some i /\ eligible_spec i) /\
      aget N.eqb s (st_asg st') = Some n
  | (_, Failed _) => True
  | (_, Hang) | (_, Panic) => False
  end.
Proof. exact route_total_and_eligible. Qed.
Print Assumptions C19_route_total_and_eligible.

(* route_terminates — the fuel bound is 1: in every state whatsoever (reachable or not) a
   single loop iteration settles the call when nothing else touches the registry in
   between, and more fuel changes nothing. *)
Theorem C19_route_terminates :
  forall (strat : strategy) (H : hashes) (order : list node) (st : state) (s : shard),
  snd (route_write_gen no_interf 1 0 strat H (fun _ => order) st s) <> Hang /\
  forall f, route_write_gen no_interf (S f) 0 strat H (fun _ => order) st s
            = route_write_gen no_interf 1 0 strat H (fun _ => order) st s.
Proof. exact route_terminates. Qed.
Print Assumptions C19_route_terminates.

(* ... and when other tasks change the registry arbitrarily between the assignment and the
   lookup of every attempt ([interf]; the map's iteration order may change per attempt, [orders]),
   the call still returns within ROUTE_FUEL loop tests,
   and an Ok(node) can accept writes in the registry as it is at its lookup. *)
Theorem C19_route_bounded_under_interference :
  forall (interf : N -> registry -> registry) (strat : strategy) (H : hashes) (orders : N -> list node)
         (st : state) (s : shard),
  snd (route_write_gen interf ROUTE_FUEL 0 strat H orders st s) <> Hang /\
  forall st' n, route_write_gen interf ROUTE_FUEL 0 strat H orders st s = (st', Done n) ->
                eligible (st_reg st') n = true.
Proof. exact route_bounded_under_interference. Qed.
Print Assumptions C19_route_bounded_under_interference.

(* route_eligible — an Ok(node) is registered, healthy, ingesting and below the threshold. *)
Theorem C19_route_eligible :
  forall (strat : strategy) (H : hashes) (order : list node) (st : state) (s : shard) (st' : state) (n : node),
  route_write strat H order st s = (st', Done n) ->
  exists i, aget N.eqb n (st_reg st') = Some i /\
            n_status i = Healthy /\ (n_type i = Ingester \/ n_type i = Combined) /\
            n_load i < Consts.ROUTER_LOAD_THRESHOLD.
Proof. exact route_eligible. Qed.
Print Assumptions C19_route_eligible.

(* one_node_per_shard — after every history the assignment is a function of the shard. *)
Theorem C19_one_node_per_shard :
  forall (strat : strategy) (H : hashes) (h : list op) (s : shard) (n1 n2 : node),
  In (s, n1) (st_asg (run strat H h)) -> In (s, n2) (st_asg (run strat H h)) -> n1 = n2.
Proof. exact one_node_per_shard. Qed.
Print Assumptions C19_one_node_per_shard.

(* moves_only_when_ineligible_or_rebalanced — along every history, a shard leaves its node
   only by a rebalance, by routing that very shard while its node cannot accept writes, or
   by a route of that very shard during which another task changed the registry (the node
   then failed the lookup of an attempt). *)
Theorem C19_moves_only_when_ineligible_or_rebalanced :
  forall (strat : strategy) (H : hashes) (h : list op) (o : op) (s : shard) (n : node),
  let st := run strat H h in
  let st' := run strat H (h ++ [o]) in
  aget N.eqb s (st_asg st) = Some n ->
  aget N.eqb s (st_asg st') <> Some n ->
  (exists order, o = ORebalance order) \/
  (exists order, o = ORoute s order /\ eligible (st_reg st) n = false) \/
  (exists orders specs, o = ORouteI s orders specs).
Proof. exact moves_only_when_ineligible_or_rebalanced_hist. Qed.
Print Assumptions C19_moves_only_when_ineligible_or_rebalanced.

(* a shard becomes assigned only by being routed *)
Theorem C19_assigned_only_by_route :
  forall (strat : strategy) (H : hashes) (st : state) (o : op) (st' : state) (r : result) (s : shard),
  step strat H st o = (st', r) ->
  aget N.eqb s (st_asg st) = None ->
  aget N.eqb s (st_asg st') <> None ->
  (exists order, o = ORoute s order) \/ (exists orders specs, o = ORouteI s orders specs).
Proof. exact assigned_only_by_route. Qed.
Print Assumptions C19_assigned_only_by_route.

(* a rebalance that finds a healthy ingester leaves every assigned shard on a node that can
   accept writes *)
Theorem C19_rebalance_all_eligible :
  forall (H : hashes) (order : list node) (st st' : state) (m : list (shard * node * node)) (s : shard) (n : node),
  rebalance H order st = (st', m) ->
  healthy_ingesters order (st_reg st) <> [] ->
  (forall k, vnode_hashes H k <> []) ->
  aget N.eqb s (st_asg st') = Some n -> eligible (st_reg st') n = true.
Proof. exact rebalance_all_eligible. Qed.
Print Assumptions C19_rebalance_all_eligible.

(* availability (stronger than the property asks): an error only when no registered node can
   accept writes *)
Theorem C19_route_available :
  forall (strat : strategy) (H : hashes) (order : list node) (st : state) (s : shard),
  (forall n, vnode_hashes H n <> []) ->
  (exists n, eligible (st_reg st) n = true) ->
  exists n, snd (route_write strat H order st s) = Done n.
Proof. exact route_available. Qed.
Print Assumptions C19_route_available.

(* The code BEFORE the fix (kept in the model as legacy_route_write): one ingester, a shard
   routed to it, the node drained — routing shard 3 then recurses for ever (the stale ring
   re-picks the drained node); the harness replays this history on the real code. *)
Theorem C19_prefix_route_loops_forever :
  forall fuel : nat,
  snd (legacy_route_write fuel ConsistentHash witness_hashes [0] witness_state 3) = Hang.
Proof. exact prefix_route_loops_forever. Qed.
Print Assumptions C19_prefix_route_loops_forever.

(* constants read from the Rust sources on every run: the threshold is a percentage (so
   "overloaded" means something), at least one attempt is made, and the loop of route_write
   is bounded by the constant the model uses *)
Theorem C19_threshold_is_a_percentage : 0 < Consts.ROUTER_LOAD_THRESHOLD <= 100.
Proof. exact threshold_is_a_percentage. Qed.
Print Assumptions C19_threshold_is_a_percentage.

Theorem C19_at_least_one_attempt : 0 < Consts.ROUTER_MAX_ROUTE_ATTEMPTS.
Proof. exact max_attempts_pos. Qed.
Print Assumptions C19_at_least_one_attempt.

Theorem C19_loop_bound_is_max_attempts : Consts.ROUTER_ROUTE_LOOP_BOUND = Consts.ROUTER_MAX_ROUTE_ATTEMPTS.
Proof. exact loop_bound_is_max_attempts. Qed.
Print Assumptions C19_loop_bound_is_max_attempts.
