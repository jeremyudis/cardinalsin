(* C03 — Compaction never loses or duplicates stored rows.
   Statements only; every proof is `exact <lemma>`; assumptions printed.

   Model: Model/Compactor.v — the compaction procedure of src/compactor/mod.rs
   request by request, any number of compactor nodes interleaved at request
   granularity, a fault before / after effect at every request, crashes, lease
   expiry through clock ticks, renewal tasks, GC of scheduled deletions, stale
   candidate lists (a node may start on any duplicate-free list of paths it has
   ever seen in the catalog).

   The full-strength "each row once" clause

     forall sched s0, wf0 s0 -> NoDup (cat_keys s0) ->
       quiescent (run sched s0) = true ->
       Permutation (visible (run sched s0)) (visible s0)

   is FALSE of the code as it is (C03_refuted_* below, each replayed on the
   real compactor by the harness corpus); C03_modulo_known is the strongest
   true statement: it holds for every schedule outside the executable
   classifier [known_class]. *)
From Coq Require Import Permutation.
From CS Require Import Base.Prelude Model.Catalog Model.Compactor Proofs.CompactorProofs.
Open Scope N_scope.

(* (a) For EVERY schedule — any interleaving of any number of compactors, any
   crash point, any fault before/after effect, any lease expiry, any stale
   candidate list, GC running — no row that was reachable through the catalog
   ever becomes unreachable. *)
Theorem C03_never_unqueryable :
  forall (sched : list label) (s0 : state), wf0 s0 ->
  forall r, In r (visible s0) -> In r (visible (run sched s0)).
Proof. exact never_unqueryable. Qed.
Print Assumptions C03_never_unqueryable.

(* (b) Outside the known classes, whenever no compaction is in progress the
   rows reachable through the catalog are exactly the initial multiset. *)
Theorem C03_modulo_known :
  forall (sched : list label) (s0 : state),
  wf0 s0 -> NoDup (cat_keys s0) ->
  known_class s0 sched = 0 ->
  quiescent (run sched s0) = true ->
  Permutation (visible (run sched s0)) (visible s0).
Proof. exact exact_when_quiescent. Qed.
Print Assumptions C03_modulo_known.

(* ... and while compactions are in progress the only surplus is the content
   of the registered targets whose swap is still outstanding. *)
Theorem C03_surplus_is_unswapped_targets :
  forall (sched : list label) (s0 : state),
  wf0 s0 -> NoDup (cat_keys s0) -> known_class s0 sched = 0 ->
  let s := run sched s0 in
  exists U, NoDup U /\ (forall t, In t U <-> exists c, In t (unswapped (pcof s c))) /\
            Permutation (visible s) (visible s0 ++ flat_map (rowsof s) U).
Proof. exact surplus_is_unswapped_targets. Qed.
Print Assumptions C03_surplus_is_unswapped_targets.

(* (c) Whenever complete_compaction takes effect, in any state, the target is
   one level above the highest-level source that was in the catalog; the
   sources are gone; no other chunk changes level. *)
Theorem C03_level_rule :
  forall (s : state) (c : cid) (f : fault) l g t c',
  p_pc (get_proc s c) = PSwap l g t -> f <> FBefore ->
  cat_complete (s_cat s) g t = Some c' ->
  let s' := fst (step s (LStep c f)) in
  level_of s' t = Some (max_level (level_of s) g + 1) /\
  (forall p, In p g -> level_of s' p = None) /\
  (forall p, p <> t -> ~ In p g -> level_of s' p = level_of s p).
Proof. exact level_rule. Qed.
Print Assumptions C03_level_rule.

(* max_level is the maximum: an upper bound that is attained (0 when no source is catalogued) *)
Theorem C03_max_level_is_upper_bound :
  forall (lv : path -> option N) g p l, In p g -> lv p = Some l -> l <= max_level lv g.
Proof. exact max_level_upper. Qed.
Print Assumptions C03_max_level_is_upper_bound.

Theorem C03_max_level_is_attained :
  forall (lv : path -> option N) g,
  max_level lv g = 0 \/ exists p, In p g /\ lv p = Some (max_level lv g).
Proof. exact max_level_attained. Qed.
Print Assumptions C03_max_level_is_attained.

(* the known classes: after each of these histories no compaction is in
   progress and the catalog reaches rows twice *)
Theorem C03_refuted_register_swap_gap_error : refutes (two_l0 true) k1_register_fail_after 1.
Proof. exact C03_refuted_register_swap_gap_error. Qed.
Print Assumptions C03_refuted_register_swap_gap_error.

Theorem C03_refuted_register_swap_gap_crash : refutes (two_l0 false) k1_crash_before_swap 1.
Proof. exact C03_refuted_register_swap_gap_crash. Qed.
Print Assumptions C03_refuted_register_swap_gap_crash.

Theorem C03_refuted_register_swap_gap_swap_error : refutes (two_l0 false) k1_swap_fail_before 1.
Proof. exact C03_refuted_register_swap_gap_swap_error. Qed.
Print Assumptions C03_refuted_register_swap_gap_swap_error.

Theorem C03_refuted_stale_candidates : refutes (two_l0 true) k2_stale_candidates 2.
Proof. exact C03_refuted_stale_candidates. Qed.
Print Assumptions C03_refuted_stale_candidates.

Theorem C03_refuted_lease_lost : refutes (two_l0 false) k3_lease_lost 3.
Proof. exact C03_refuted_lease_lost. Qed.
Print Assumptions C03_refuted_lease_lost.

Theorem C03_refuted_unswapped_target : refutes l1_pair k5_unswapped_target 5.
Proof. exact C03_refuted_unswapped_target. Qed.
Print Assumptions C03_refuted_unswapped_target.

(* K4 (liveness, relevant to C08 / C20; repaired by fix 00081bd): every request
   whose error leaves the cycle with `?` stops the renewal task of the
   abandoned lease and releases the concurrency slot — before the repair the
   lease was renewed for ever and the chunks were never compacted again. *)
Theorem C03_error_path_stops_renewal :
  forall (s : state) (c : cid) (f : fault) (k a : N),
  snd (step s (LStep c f)) = (k, a, 1) ->
  let s' := fst (step s (LStep c f)) in
  p_pc (get_proc s' c) = Idle /\
  (forall l, lease_of_pc (p_pc (get_proc s c)) = Some l -> ~ In l (p_renew (get_proc s' c))) /\
  p_active (get_proc s' c) = p_active (get_proc s c) - 1.
Proof. exact error_path_stops_renewal. Qed.
Print Assumptions C03_error_path_stops_renewal.

(* the reduced catalog of this model is the level projection of the catalog
   model of C07 / C02 *)
Theorem C03_catalog_refines_complete :
  forall (c : cat) srcs tgt,
  option_map levels_of (s3_complete c srcs tgt) = cat_complete (levels_of c) srcs tgt.
Proof. exact refine_complete. Qed.
Print Assumptions C03_catalog_refines_complete.

Theorem C03_catalog_refines_register :
  forall (c : cat) p m, levels_of (s3_register c p m) = cat_register (levels_of c) p.
Proof. exact refine_register. Qed.
Print Assumptions C03_catalog_refines_register.
