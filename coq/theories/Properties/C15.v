(* C15 — Dual-write routes each row to exactly one new shard; split-time reads
   stay exact.  Statements only; every proof is `exact <lemma>`; assumptions
   printed.

   Full statement of the read half (kept visible; it is not a theorem of this
   file):
     reads_exact_during_split :
       forall history h ending flushed with a shard in DualWrite/Backfill and
       every query q of the C04 family (aggregates included),
         result (query during the split) == result (same query, no split)
       as multisets.
   As coded this is false; it is proved for every query outside the three
   executable classes of [known_class] (C15_modulo_known) and refuted by a
   witness inside each class (the C15_refuted_ theorems).  The class "two series of one
   metric sharing a timestamp collapse" was repaired in the code (fix: commit,
   see known-findings.json); C15_series_collapse_repaired keeps its witness. *)
From CS Require Import Base.Prelude Model.Dedup Proofs.DedupProofs.
From Coq Require Import Permutation.
Open Scope Z_scope.

(* Routing.  While the batch's shard is in DualWrite or Backfill (split point
   of 8 bytes, two new shards), every Int64-timestamped batch is accepted, the
   old shard receives the whole batch, and exactly one chunk per non-empty side
   is registered: rows below the split point under the first new shard, rows
   at or above it under the second; each row of the batch is on exactly one
   side. For all states, batches and split points. *)
Theorem C15_routing_exact : forall st sid ss b sp a0 a1,
  aget N.eqb sid (i_splits st) = Some ss -> valid_split ss sp a0 a1 -> ib_ts b = TsInt64 ->
  let st1 := append_and_maybe_flush st b in
  let lo := filter (lower_side sp) (ib_rows b) in
  let up := filter (upper_side sp) (ib_rows b) in
  write st sid b = (with_chunks st1 (side_chunk a0 lo ++ side_chunk a1 up), Done tt) /\
  stored st1 = stored st ++ ib_rows b /\
  new_rows st1 = new_rows st /\
  Permutation (lo ++ up) (ib_rows b) /\
  (forall r, In r lo <-> In r (ib_rows b) /\ ts_value r < sp) /\
  (forall r, In r up <-> In r (ib_rows b) /\ sp <= ts_value r) /\
  (forall r, In r (ib_rows b) -> (In r lo /\ ~ In r up) \/ (In r up /\ ~ In r lo)).
Proof. exact routing_exact. Qed.
Print Assumptions C15_routing_exact.

(* The same per shard path: the first new shard gains exactly the lower rows,
   the second exactly the upper rows, no other shard changes, the old shard
   gains the batch. *)
Theorem C15_routing_exact_per_shard : forall st sid ss b sp a0 a1,
  aget N.eqb sid (i_splits st) = Some ss -> valid_split ss sp a0 a1 -> ib_ts b = TsInt64 -> a0 <> a1 ->
  let st' := fst (write st sid b) in
  snd (write st sid b) = Done tt /\
  shard_rows st' a0 = shard_rows st a0 ++ filter (lower_side sp) (ib_rows b) /\
  shard_rows st' a1 = shard_rows st a1 ++ filter (upper_side sp) (ib_rows b) /\
  (forall s, s <> a0 -> s <> a1 -> shard_rows st' s = shard_rows st s) /\
  stored st' = stored st ++ ib_rows b.
Proof. exact routing_exact_shards. Qed.
Print Assumptions C15_routing_exact_per_shard.

(* The dual-write split accepts exactly Int64 timestamps with an 8-byte point. *)
Theorem C15_split_accepts_iff : forall b point,
  (exists lo up, split_batch_by_key b point = Done (lo, up)) <->
  ib_ts b = TsInt64 /\ exists sp, split_ts point = Some sp.
Proof. exact split_accepts_iff. Qed.
Print Assumptions C15_split_accepts_iff.

(* Histories: whatever the sequence of split-state changes, writes (accepted,
   rejected or panicking), flushes, pre-existing historical chunks and
   back-fill runs, the old shard holds exactly the written / pre-existing rows,
   each once, and every row under a new shard (dual-write chunk or back-fill
   copy) is a copy of one of them. *)
Theorem C15_old_shard_holds_all_writes : forall h st,
  Permutation (stored (hrun st h)) (stored st ++ written_rows h).
Proof. exact stored_is_written. Qed.
Print Assumptions C15_old_shard_holds_all_writes.

Theorem C15_new_shards_hold_copies : forall h st x,
  In x (new_rows (hrun st h)) -> In x (new_rows st) \/ In x (stored (hrun st h)).
Proof. exact new_rows_are_copies. Qed.
Print Assumptions C15_new_shards_hold_copies.

(* dedup_batches over batches that carry both gating columns is the
   first-occurrence de-duplication of the concatenated rows; batches lacking a
   gating column pass through. *)
Theorem C15_dedup_across_batches : forall bs seen, forallb keyed bs = true ->
  result_rows (dedup_batches_aux seen bs) = snd (fst (dedup_rows seen (result_rows bs))).
Proof. exact dedup_batches_rows. Qed.
Print Assumptions C15_dedup_across_batches.

Theorem C15_dedup_passthrough : forall seen b bs, keyed b = false ->
  dedup_batches_aux seen (b :: bs) = b :: dedup_batches_aux seen bs.
Proof. exact dedup_passthrough. Qed.
Print Assumptions C15_dedup_passthrough.

(* Reads, pure form: for ANY scan holding the ingested rows and arbitrary
   copies of them (any order, any batching), a query outside the known classes
   returns during a split exactly what it returns over the ingested rows. *)
Theorem C15_modulo_known : forall (ing : list row) (scanned : list (list row)) (q : query),
  same_set ing (concat scanned) ->
  known_class ing q = KNone ->
  Permutation (result_rows (run_query true q scanned)) (result_rows (run_query false q [ing])).
Proof. exact modulo_known. Qed.
Print Assumptions C15_modulo_known.

(* Reads, along a history from the empty state: the scan is then the old
   shard's rows plus the copies under the new shards, and the ingested rows
   are the written ones. *)
Theorem C15_history_modulo_known : forall (flush_rows : N) (h : list hop) (q : query),
  let st := hrun (init_state flush_rows) h in
  i_buffer st = [] -> has_active_split st = true ->
  known_class (written_rows h) q = KNone ->
  Permutation (old_rows st) (written_rows h) /\
  Permutation (result_rows (query_state st q)) (result_rows (run_query false q [written_rows h])).
Proof. exact history_modulo_known. Qed.
Print Assumptions C15_history_modulo_known.

(* Back-fill copies: each lives under a new shard and holds only rows of one
   historical chunk of the old shard. *)
Theorem C15_backfill_copies : forall sp news hist c,
  In c (fst (backfill_chunks sp news hist)) ->
  is_old c = false /\ exists h, In h hist /\ incl (c_rows c) (c_rows h).
Proof. exact backfill_chunks_spec. Qed.
Print Assumptions C15_backfill_copies.

(* The repaired class: distinct rows sharing timestamp and metric name are all
   kept by SELECT *. *)
Theorem C15_series_all_kept : forall ing scanned w,
  same_set ing (concat scanned) -> NoDup (filter (where_row w) ing) ->
  Permutation (result_rows (run_query true (mkQuery w (PRaw true true true)) scanned))
              (filter (where_row w) ing).
Proof. exact series_all_kept. Qed.
Print Assumptions C15_series_all_kept.

Theorem C15_series_collapse_repaired :
  let st := hrun (init_state 1) wit_series in
  let scanned := concat (scan st) in
  length (legacy_dedup_rows [] scanned) = 3%nat /\
  ~ In (rw 50 7 2 20) (legacy_dedup_rows [] scanned) /\
  Permutation (result_rows (query_state st (q_all (PRaw true true true)))) (written_rows wit_series) /\
  known_class (written_rows wit_series) (q_all (PRaw true true true)) = KNone.
Proof. exact series_collapse_repaired. Qed.
Print Assumptions C15_series_collapse_repaired.

(* The classes that remain open: a witness history inside each, on which the
   answer during the split differs from the answer over the written rows. *)
Theorem C15_refuted_aggregate_inflated :
  exists (h : list hop) (q : query),
    let st := hrun (init_state 1) h in
    i_buffer st = [] /\ has_active_split st = true /\
    known_class (written_rows h) q = KAggregate /\
    result_rows (query_state st q) = [mkRow None None [8]] /\
    result_rows (run_query false q [written_rows h]) = [mkRow None None [4]] /\
    ~ Permutation (result_rows (query_state st q)) (result_rows (run_query false q [written_rows h])).
Proof. exact refuted_aggregate_inflated. Qed.
Print Assumptions C15_refuted_aggregate_inflated.

Theorem C15_refuted_projection_duplicates :
  exists (h : list hop) (q : query),
    let st := hrun (init_state 1) h in
    i_buffer st = [] /\ has_active_split st = true /\
    known_class (written_rows h) q = KProjection /\
    length (result_rows (query_state st q)) = 8%nat /\
    length (result_rows (run_query false q [written_rows h])) = 4%nat /\
    ~ Permutation (result_rows (query_state st q)) (result_rows (run_query false q [written_rows h])).
Proof. exact refuted_projection_duplicates. Qed.
Print Assumptions C15_refuted_projection_duplicates.

Theorem C15_refuted_identical_rows_collapse :
  exists (h : list hop) (q : query),
    let st := hrun (init_state 1) h in
    i_buffer st = [] /\ has_active_split st = true /\
    known_class (written_rows h) q = KIdentical /\
    length (result_rows (query_state st q)) = 2%nat /\
    length (result_rows (run_query false q [written_rows h])) = 3%nat /\
    ~ Permutation (result_rows (query_state st q)) (result_rows (run_query false q [written_rows h])).
Proof. exact refuted_identical_rows_collapse. Qed.
Print Assumptions C15_refuted_identical_rows_collapse.
