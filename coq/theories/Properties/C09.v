(* C09 — Garbage collection and retention delete only what is safe to delete.
   Statements only; every proof is `exact <lemma>`; assumptions printed.

   Vocabulary (Model/Gc.v): a history is a list of steps run from `init t0`;
   `ok_from` = registrations use fresh paths (chunk paths are uuids) and entries
   written into the pending file from outside never name a live chunk;
   `deletes c s x` = the data files step x physically deletes in state s;
   `schedules c s x` = the paths step x hands to schedule_deletion. *)
From CS Require Import Base.Prelude Model.Gc Proofs.GcProofs.
Open Scope Z_scope.

(* Grace period, for ANY behaviour of the wall clock (ticks of either sign: the
   clock may be stepped back between scheduling and a pass) and with entries
   written into pending-deletions.json from outside (DiskEdit: dated in the
   future, the past, now).  Whenever a step deletes the file p, p is not
   referenced by the catalog and there is an entry (p, ts) with
       ts + grace <= pass_time  (the clock reading the pass took at its filter),
   i.e. an entry waits at least the grace period after ITS OWN timestamp, also
   when that timestamp lies ahead of the local clock; either the compactor
   scheduled p at some step and no catalog state has referenced p since a
   state whose clock read at most ts (every intermediate state is covered),
   or the entry was written from outside, p unreferenced ever since. *)
Theorem C09_gc_after_grace :
  forall (c : gcfg) (t0 : Z) (h : list label) (x : label) (p : path),
  ok_from c (init t0) (h ++ [x]) = true ->
  In p (deletes c (runi c t0 h) x) ->
  amem N.eqb p (cat (runi c t0 h)) = false /\
  exists ts, ts + g_grace c <= pass_time c (runi c t0 h) x /\ origin_in c t0 h p ts.
Proof. exact gc_after_grace. Qed.
Print Assumptions C09_gc_after_grace.

(* The same in the property's words when the wall clock is never stepped back:
   the deleted file left the catalog at a clock reading at least one grace
   period before the reading at the delete and has been unreferenced
   throughout (or its entry was written from outside and is at least one grace
   period old by its own timestamp). *)
Theorem C09_gc_after_grace_monotone_clock :
  forall (c : gcfg) (t0 : Z) (h : list label) (x : label) (p : path),
  ok_from c (init t0) (h ++ [x]) = true ->
  forallb tick_nonneg h = true ->
  In p (deletes c (runi c t0 h) x) ->
  exists ts, ts + g_grace c <= now (runi c t0 h) /\
    ((unref_throughout c t0 h p (now (runi c t0 h) - g_grace c) /\ scheduled_in c t0 h p) \/
     foreign_in c t0 h p ts).
Proof. exact gc_after_grace_monotone. Qed.
Print Assumptions C09_gc_after_grace_monotone_clock.

(* Nothing else is ever deleted, part 1: a deleted file was handed to
   schedule_deletion by an earlier step (a compaction swap that removed it from
   the catalog, or a retention pass), or named by an entry written into the
   pending file from outside. *)
Theorem C09_only_scheduled_deleted :
  forall (c : gcfg) (t0 : Z) (h : list label) (x : label) (p : path),
  ok_from c (init t0) (h ++ [x]) = true ->
  In p (deletes c (runi c t0 h) x) ->
  scheduled_in c t0 h p \/ exists ts, foreign_in c t0 h p ts.
Proof. exact deleted_was_scheduled. Qed.
Print Assumptions C09_only_scheduled_deleted.

(* ... part 2: in any state, a data file disappears only through the deletes
   of a GC step. *)
Theorem C09_nothing_else_deleted :
  forall (c : gcfg) (s : st) (x : label) (p : path),
  In p (objs s) -> ~ In p (objs (step c s x)) -> In p (deletes c s x).
Proof. exact object_removed_only_by_gc. Qed.
Print Assumptions C09_nothing_else_deleted.

(* Restart.  Every deletion that was pending when the cycle persisted the list
   is pending again after a restart has loaded the file (with a scheduled_at
   taken from the persisted list). *)
Theorem C09_persisted_survive_restart :
  forall (c : gcfg) (s : st) (p : path) (ts : Z),
  In (p, ts) (pending s) ->
  let s1 := run c [PersistSnap; PersistPut; Restart; Load] s in
  exists ts', In (p, ts') (pending s1) /\ In (p, ts') (pending s).
Proof. exact persisted_survive_restart. Qed.
Print Assumptions C09_persisted_survive_restart.

(* ... and it is carried out: once the grace period has elapsed and the path
   is not pinned, the next pass deletes the file. *)
Theorem C09_persisted_then_deleted :
  forall (c : gcfg) (s : st) (p : path) (ts d : Z),
  In (p, ts) (pending s) -> (forall q t, In (q, t) (pending s) -> t <= now s) ->
  g_grace c <= d -> ~ In p (pins s) ->
  let s1 := run c [PersistSnap; PersistPut; Restart; Load; Tick d; GcFilter] s in
  In p (deletes c s1 (GcDelete p)) /\ ~ In p (objs (step c s1 (GcDelete p))).
Proof. exact persisted_then_deleted. Qed.
Print Assumptions C09_persisted_then_deleted.

(* Retention (repaired code).  A chunk that a retention pass removes from the
   catalog has its newest row strictly older than
   cutoff = now - retention - skew margin. *)
Theorem C09_retention_only_old :
  forall (c : gcfg) (s : st) (p : path),
  amem N.eqb p (cat s) = true -> amem N.eqb p (cat (step c s Retention)) = false ->
  exists mn mx, In (p, (mn, mx)) (cat s) /\ mx < ret_cutoff c (bclock s).
Proof. exact retention_only_old. Qed.
Print Assumptions C09_retention_only_old.

(* The same over whole histories: every removal any retention pass of the
   history ever made (logged with the chunk's newest row and that pass's
   cut-off) concerned an expired chunk. *)
Theorem C09_retention_log_only_old :
  forall (c : gcfg) (t0 : Z) (h : list label) (e : retev),
  In e (rlog (run c h (init t0))) -> r_max e < r_cutoff e.
Proof. exact retention_log_only_old. Qed.
Print Assumptions C09_retention_log_only_old.

(* The only ways out of the catalog: source of a compaction swap, or old
   enough at a retention pass. *)
Theorem C09_catalog_removal_causes :
  forall (c : gcfg) (s : st) (x : label) (p : path),
  amem N.eqb p (cat s) = true -> amem N.eqb p (cat (step c s x)) = false ->
  (exists srcs tgt, x = Swap srcs tgt /\ In p srcs) \/
  (x = Retention /\ exists mn mx, In (p, (mn, mx)) (cat s) /\ mx < ret_cutoff c (bclock s)).
Proof. exact catalog_removal_causes. Qed.
Print Assumptions C09_catalog_removal_causes.

(* Pins, atomic variant: if filter, deletes and retain were one step, no file
   would ever be deleted while pinned. *)
Theorem C09_pin_safe_atomic :
  forall (c : gcfg) (t0 : Z) (h : list label),
  forallb (fun x => negb (is_split_gc x)) h = true ->
  forall e, In e (dlog (run c h (init t0))) -> d_pinned e = false.
Proof. exact pin_safe_atomic. Qed.
Print Assumptions C09_pin_safe_atomic.

(* Pins, as coded (filter, then one delete per await): REFUTED.
   filter . pin . delete deletes a file that is pinned at that instant (that
   the query which pinned it then cannot read it is
   GcProofs.toctou_query_loses_file). *)
Theorem C09_refuted_pin_toctou :
  exists e, In e (dlog (run cfg0 toctou_history (init 100))) /\ d_pinned e = true.
Proof. exact toctou_refutes. Qed.
Print Assumptions C09_refuted_pin_toctou.

(* The strongest true statement for the coded split: unless some query pins a
   path that a running GC pass has already selected (class pin-toctou), no
   file is deleted while pinned. *)
Theorem C09_modulo_known :
  forall (c : gcfg) (t0 : Z) (h : list label),
  known_class_from c (init t0) h = false ->
  forall e, In e (dlog (run c h (init t0))) -> d_pinned e = false.
Proof. exact modulo_known. Qed.
Print Assumptions C09_modulo_known.

(* Queries that pin a chunk list which is still entirely in the catalog (a
   current metadata view: get_chunks and pin without an await in between) are
   never in the class. *)
Theorem C09_pin_safe_fresh_views :
  forall (c : gcfg) (t0 : Z) (h : list label),
  ok_from c (init t0) h = true -> fresh_pins_from c (init t0) h = true ->
  forall e, In e (dlog (run c h (init t0))) -> d_pinned e = false.
Proof. exact pin_safe_fresh_views. Qed.
Print Assumptions C09_pin_safe_fresh_views.

(* The selection of the code before the repair (overlap with [0, cutoff]) is
   refuted: it removes a chunk whose newest row is younger than the cut-off. *)
Theorem C09_refuted_retention_overlap :
  exists cutoff c p mn mx, In (p, (mn, mx)) (ret_select_overlap cutoff c) /\ ~ (mx < cutoff).
Proof. exact overlap_selection_refuted. Qed.
Print Assumptions C09_refuted_retention_overlap.
