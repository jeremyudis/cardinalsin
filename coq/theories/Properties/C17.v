(* C17 — Ingest protocol conversion is faithful, and no payload can crash the
   receiver.  Statements only; every proof is `exact <lemma>`; assumptions
   printed. *)
From Coq Require Import ZArith List Reals Sorting.Sorted.
From Flocq Require Import Core IEEE754.BinarySingleNaN.
From CS Require Import Base.Prelude Model.Proto Model.ProtoConv Model.Otlp.
From CS Require Import Proofs.ProtoProofs Proofs.ProtoConvProofs Proofs.ProtoFloatProofs Proofs.OtlpProofs.
Open Scope N_scope.

(* parse_total.  Every byte string (a Rust slice is shorter than 2^63 bytes)
   is answered by the hand-written protobuf reader with Ok or Err — never a
   panic (debug overflow check, out-of-range slice) and never a hang (the
   cursor strictly increases, so length + 1 loop iterations suffice) — in debug
   and in release builds. *)
Theorem C17_parse_total : forall (m : build) (data : bytes),
  N.of_nat (length data) < I63 ->
  match parse_write_request (current m) data with
  | Done _ | Failed _ => True
  | Panic | Hang => False
  end.
Proof. exact parse_total. Qed.
Print Assumptions C17_parse_total.

(* Debug and release builds of the current reader give the same answer on
   every input: none of its usize additions overflows. *)
Theorem C17_mode_irrelevant : forall (data : bytes), N.of_nat (length data) < I63 ->
  parse_write_request (current Release) data = parse_write_request (current Debug) data.
Proof. exact mode_irrelevant. Qed.
Print Assumptions C17_mode_irrelevant.

(* The reader before the repair (commit 10ed38f) is refuted by a length varint
   near 2^64: panic in debug builds, out-of-range slice or endless loop in
   release builds.  The current reader answers the same inputs with an error. *)
Theorem C17_legacy_refuted_len_overflow :
  parse_write_request (legacy Debug) witness_known = Panic /\
  parse_write_request (legacy Release) witness_known_wrap = Panic /\
  parse_write_request (legacy Debug) witness_skip = Panic /\
  parse_write_request (legacy Release) witness_skip = Hang.
Proof. exact legacy_refuted_len_overflow. Qed.
Print Assumptions C17_legacy_refuted_len_overflow.

Theorem C17_witnesses_answered_today :
  parse_write_request (current Debug) witness_known = Failed E_TRUNC_TIMESERIES /\
  parse_write_request (current Release) witness_known_wrap = Failed E_TRUNC_TIMESERIES /\
  parse_write_request (current Debug) witness_skip = Failed E_TRUNC_FIELD /\
  parse_write_request (current Release) witness_skip = Failed E_TRUNC_FIELD.
Proof. exact current_witnesses_answered. Qed.
Print Assumptions C17_witnesses_answered_today.

(* parse_encode.  The reader inverts the canonical encoder on every
   well-formed request: any number of series, labels (valid UTF-8) and samples
   (any i64 timestamp, any 64-bit value pattern). *)
Theorem C17_parse_encode : forall (m : build) (r : request),
  wf_request r -> N.of_nat (length (enc_request r)) < I63 ->
  parse_write_request (current m) (enc_request r) = Done r.
Proof. exact parse_encode. Qed.
Print Assumptions C17_parse_encode.

(* non-vacuity of the well-formedness hypothesis: every ASCII string is a
   well-formed label string *)
Theorem C17_ascii_strings_wf : forall s, Forall (fun b => b < 128) s -> wf_string s.
Proof. exact ascii_wf. Qed.
Print Assumptions C17_ascii_strings_wf.

(* convert_faithful.  When the conversion succeeds: the label columns are
   exactly the label names other than "__name__", strictly increasing; the rows
   are, series by series and sample by sample in request order, one row per
   sample carrying the exact nanosecond timestamp (which fits i64), the metric
   name of its own series, the routed value of its own sample and, in every
   label column, what its own series says about that label (null when the
   series does not carry it) — rows of different series are never mixed. *)
Theorem C17_convert_faithful : forall (r : request) (b : batch),
  convert r = Done b ->
  StronglySorted blt (b_cols b) /\
  (forall c, In c (b_cols b) <->
             c <> NAME /\ exists t l, In t r /\ In l (ts_labels t) /\ l_name l = c) /\
  exists rows : list (list row),
    b_rows b = concat rows /\
    Forall2 (fun t rs => Forall2 (row_faithful (b_cols b) t) (ts_samples t) rs) r rows.
Proof. exact convert_faithful. Qed.
Print Assumptions C17_convert_faithful.

Theorem C17_convert_row_count : forall r b,
  convert r = Done b ->
  length (b_rows b) = fold_right (fun t n => (length (ts_samples t) + n)%nat) 0%nat r.
Proof. exact convert_row_count. Qed.
Print Assumptions C17_convert_row_count.

(* The conversion never crashes; it rejects only the empty request and
   requests with a timestamp that has no i64 nanosecond representation. *)
Theorem C17_convert_total : forall r : request,
  match convert r with
  | Done _ => True
  | Failed c => (c = E_NO_SERIES /\ r = []) \/
                (c = E_TS_RANGE /\ exists t s, In t r /\ In s (ts_samples t) /\ in_i64 (s_ts s * 1000000) = false)
  | Panic | Hang => False
  end.
Proof. exact convert_total. Qed.
Print Assumptions C17_convert_total.

(* The HTTP handler answers every body (decompressed or undecodable) with a
   status code: 204, 400 or 500 — never a panic, never a hang. *)
Theorem C17_handler_total : forall (m : build) (body : option bytes),
  (forall d, body = Some d -> N.of_nat (length d) < I63) ->
  match handle m body with
  | H204 | H400 | H500 => True
  | HPanic | HHang => False
  end.
Proof. exact handle_total. Qed.
Print Assumptions C17_handler_total.

(* what "metric name" and "the value of a label" mean *)
Theorem C17_metric_name_is_first_name_label : forall ls,
  (exists pre l post, ls = pre ++ l :: post /\ l_name l = NAME /\
                      (forall x, In x pre -> l_name x <> NAME) /\ metric_name ls = l_value l)
  \/ ((forall x, In x ls -> l_name x <> NAME) /\ metric_name ls = []).
Proof. exact metric_name_spec. Qed.
Print Assumptions C17_metric_name_is_first_name_label.

Theorem C17_label_cell_is_last_value : forall c ls v,
  lookup_last c ls = Some v <->
  exists pre l post, ls = pre ++ l :: post /\ l_name l = c /\ l_value l = v /\
                     (forall x, In x post -> l_name x <> c).
Proof. exact lookup_last_some. Qed.
Print Assumptions C17_label_cell_is_last_value.

Theorem C17_label_cell_null_iff_absent : forall c ls,
  lookup_last c ls = None <-> (forall l, In l ls -> l_name l <> c).
Proof. exact lookup_last_none. Qed.
Print Assumptions C17_label_cell_null_iff_absent.

(* value_equal.  The routed value is numerically equal to the sample: an
   integer column holds exactly the real value of the (finite) sample, the f64
   column holds the sample's own bit pattern. *)
Theorem C17_value_equal : forall bits : N,
  match route bits with
  | RU64 u => f64_is_finite (f64_of_bits bits) = true /\
              @BinarySingleNaN.B2R 53 1024 (f64_of_bits bits) = IZR (Z.of_N u) /\ (Z.of_N u <= i64_max)%Z
  | RI64 i => f64_is_finite (f64_of_bits bits) = true /\
              @BinarySingleNaN.B2R 53 1024 (f64_of_bits bits) = IZR i /\ (i64_min <= i < 0)%Z
  | RF64 b => b = bits
  end.
Proof. exact value_equal. Qed.
Print Assumptions C17_value_equal.

(* the routing before commit 5679380 stored 2^63 as 2^63 - 1 *)
Theorem C17_legacy_refuted_2p63 :
  route_legacy 4890909195324358656 = RU64 9223372036854775807 /\
  route 4890909195324358656 = RF64 4890909195324358656.
Proof. exact legacy_refuted_2p63. Qed.
Print Assumptions C17_legacy_refuted_2p63.

(* OTLP: one row per data point, in request order. *)
Theorem C17_otlp_rows : forall (r : oreq) (b : obatch),
  export_to_arrow r = Done b ->
  Forall2 (fun t rw =>
             o_ts rw = as_i64 (src_time (tg_src t)) /\
             o_name rw = tg_name t /\
             o_bits rw = dp_bits (point_of t) /\
             o_cells rw = map (fun c => map_get c (dp_labels (point_of t))) (ob_cols b))
          (all_tagged r) (ob_rows b).
Proof. exact otlp_rows. Qed.
Print Assumptions C17_otlp_rows.

(* The full OTLP statement (every data point becomes one row with its exact
   timestamp, metric name and a numerically equal value) is FALSE of the code as
   it is, in two recorded classes.  Integer precision: AsInt(2^53 + 1) is stored
   as the double 2^53. *)
Theorem C17_otlp_refuted_int_precision :
  known_int_precision w_int = true /\
  export_to_arrow w_int = Done (mkOBatch [] [mkORow 1 [109] 4845873199050653696 []]) /\
  bits_of_int 9007199254740992 = 4845873199050653696.
Proof. exact otlp_refuted_int_precision. Qed.
Print Assumptions C17_otlp_refuted_int_precision.

(* Timestamp wrap: time_unix_nano = 2^63 is stored as the timestamp -2^63. *)
Theorem C17_otlp_refuted_time_wrap :
  known_time_wrap w_time = true /\
  export_to_arrow w_time = Done (mkOBatch [] [mkORow (-9223372036854775808) [109] 0 []]).
Proof. exact otlp_refuted_time_wrap. Qed.
Print Assumptions C17_otlp_refuted_time_wrap.

(* otlp_modulo_known.  Outside the two classes the full statement holds: every
   data point becomes one row with its exact timestamp, its metric name and a
   numerically equal value (integer sources as reals, double sources bit for
   bit). *)
Theorem C17_otlp_modulo_known : forall (r : oreq) (b : obatch),
  known_int_precision r = false -> known_time_wrap r = false ->
  export_to_arrow r = Done b ->
  Forall2 (fun t rw =>
             o_ts rw = Z.of_N (src_time (tg_src t)) /\
             o_name rw = tg_name t /\
             (forall i, src_int (tg_src t) = Some i ->
                        @BinarySingleNaN.B2R 53 1024 (f64_of_bits (o_bits rw)) = IZR i) /\
             (forall d, src_double (tg_src t) = Some d -> o_bits rw = d) /\
             o_cells rw = map (fun c => map_get c (dp_labels (point_of t))) (ob_cols b))
          (all_tagged r) (ob_rows b).
Proof. exact otlp_modulo_known. Qed.
Print Assumptions C17_otlp_modulo_known.

(* OTLP labels: the label of key k in the row of a data point is the last value
   its own attributes give to k, otherwise what its resource says (the last
   resource attribute of that key); nothing else. *)
Theorem C17_otlp_labels : forall (t : tagged) (k : bytes),
  map_get k (dp_labels (point_of t))
  = match kv_last k (src_attrs (tg_src t)) with
    | Some v => Some v
    | None => map_get k (tg_res t)
    end.
Proof. exact otlp_labels. Qed.
Print Assumptions C17_otlp_labels.

Theorem C17_otlp_resource_labels : forall (r : oreq) (t : tagged),
  In t (all_tagged r) ->
  exists rm, In rm r /\
    forall k, map_get k (tg_res t)
              = match rm_resource rm with Some a => kv_last k a | None => None end.
Proof. exact otlp_resource_labels. Qed.
Print Assumptions C17_otlp_resource_labels.
