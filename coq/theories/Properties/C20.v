(* C20 — Compaction converges and levels only move up.
   Statements only; every proof is `exact <lemma>`; assumptions printed.

   Model: Model/Compaction.v (candidate selection of both metadata backends,
   fault-free single-compactor cycle) on top of Model/Catalog.v.  [ord]
   parameters = hash-map iteration orders; [in_oracle] = size / rows / time
   bounds of a merged chunk as a function of its sources.  A state is a
   catalog plus the counter that names merged chunks; [s3_Inv] / [local_Inv]
   (duplicate-free keys, all keys below the counter) hold for every catalog
   reached by any history of register / delete / complete_compaction and are
   preserved by every cycle. *)
From CS Require Import Base.Prelude Model.Catalog Model.Compaction Proofs.CompactionProofs.
Open Scope N_scope.

Theorem C20_initial_states_object_store :
  forall (h : list cop), s3_Inv (s3_init (s3_run h)).
Proof. exact s3_reachable_inv. Qed.
Print Assumptions C20_initial_states_object_store.

Theorem C20_initial_states_in_memory :
  forall (h : list cop), local_Inv (local_init (local_run h)).
Proof. exact local_reachable_inv. Qed.
Print Assumptions C20_initial_states_in_memory.

Theorem C20_invariant_preserved_object_store :
  forall (h : list cinput) (st : cstate cat), s3_Inv st -> s3_Inv (run_cycles s3_backend h st).
Proof. exact s3_run_cycles_inv. Qed.
Print Assumptions C20_invariant_preserved_object_store.

Theorem C20_invariant_preserved_in_memory :
  forall (h : list cinput) (st : cstate lcat), local_Inv st -> local_Inv (run_cycles local_backend h st).
Proof. exact local_run_cycles_inv. Qed.
Print Assumptions C20_invariant_preserved_in_memory.

(* Groups are disjoint and single-level: in every candidate call of every
   cycle (any configuration, any hash order) no chunk occurs twice (neither in
   two groups nor twice in one), and every member is a chunk the call has seen
   at exactly the level being compacted; what the call has seen are chunks of
   the state the cycle started from or chunks merged since. *)
Theorem C20_groups_disjoint_single_level_object_store :
  forall (i : cinput) (st : cstate cat) (lvl : N) (seen : list crow) (gs : list (list path)),
  s3_Inv st -> In (ESel lvl seen gs) (cycle_events s3_backend i st) ->
  NoDup (concat gs) /\
  (forall g p, In g gs -> In p g -> exists r, In r seen /\ r_path r = p /\ r_level r = u32_of lvl) /\
  NoDup (map r_path seen) /\
  (forall r, In r seen -> In r (s3_rows (st_cat st)) \/ st_fresh st <= r_path r).
Proof. exact s3_groups_ok. Qed.
Print Assumptions C20_groups_disjoint_single_level_object_store.

Theorem C20_groups_disjoint_single_level_in_memory :
  forall (i : cinput) (st : cstate lcat) (lvl : N) (seen : list crow) (gs : list (list path)),
  local_Inv st -> In (ESel lvl seen gs) (cycle_events local_backend i st) ->
  NoDup (concat gs) /\
  (forall g p, In g gs -> In p g -> exists r, In r seen /\ r_path r = p /\ r_level r = u32_of lvl) /\
  NoDup (map r_path seen) /\
  (forall r, In r seen -> In r (local_rows (st_cat st)) \/ st_fresh st <= r_path r).
Proof. exact local_groups_ok. Qed.
Print Assumptions C20_groups_disjoint_single_level_in_memory.

(* the selection functions on their own, for every catalog content *)
Theorem C20_selection_functions :
  (forall thr rows, NoDup (map r_path rows) -> sel_ok 0 rows (s3_l0 thr rows)) /\
  (forall thr rows, NoDup (map r_path rows) -> sel_ok 0 rows (local_l0 thr rows)) /\
  (forall lvl tgt rows gs, NoDup (map r_path rows) -> s3_level lvl tgt rows = Some gs -> sel_ok lvl rows gs) /\
  (forall lvl tgt rows gs, NoDup (map r_path rows) -> local_level lvl tgt rows = Some gs -> sel_ok lvl rows gs) /\
  (forall ord rows, NoDup (map r_path rows) ->
     NoDup (map r_path (reorder ord rows)) /\ forall r, In r (reorder ord rows) <-> In r rows).
Proof. exact selection_groups_ok. Qed.
Print Assumptions C20_selection_functions.

(* Every merge of a cycle takes a non-empty group returned by a candidate call
   of that level, all of whose members are at the level being compacted, and
   publishes the target one level higher (= 1 + max source level). *)
Theorem C20_merge_level_rule_object_store :
  forall (i : cinput) (st : cstate cat) (lvl : N) (g : list path) (t : path) (m : cmeta) (nl : option N),
  s3_Inv st -> In (EMerge lvl g t m nl) (cycle_events s3_backend i st) ->
  g <> [] /\ nl = Some (u32_of lvl + 1) /\
  exists seen gs, In (ESel lvl seen gs) (cycle_events s3_backend i st) /\ In g gs /\
    forall p, In p g -> exists r, In r seen /\ r_path r = p /\ r_level r = u32_of lvl.
Proof. exact s3_merge_rule. Qed.
Print Assumptions C20_merge_level_rule_object_store.

Theorem C20_merge_level_rule_in_memory :
  forall (i : cinput) (st : cstate lcat) (lvl : N) (g : list path) (t : path) (m : cmeta) (nl : option N),
  local_Inv st -> In (EMerge lvl g t m nl) (cycle_events local_backend i st) ->
  g <> [] /\ nl = Some (u32_of lvl + 1) /\
  exists seen gs, In (ESel lvl seen gs) (cycle_events local_backend i st) /\ In g gs /\
    forall p, In p g -> exists r, In r seen /\ r_path r = p /\ r_level r = u32_of lvl.
Proof. exact local_merge_rule. Qed.
Print Assumptions C20_merge_level_rule_in_memory.

(* Levels are monotone: over every history of cycles (configurations, hash
   orders, oracles varying freely) a path that is live at two moments has the
   same level at both (so it never decreases; data only moves up through
   merges, previous theorem), and a path that disappeared never comes back. *)
Theorem C20_level_monotone_object_store :
  forall (h1 h2 : list cinput) (st : cstate cat) (p : path) (a b : N),
  s3_Inv st ->
  level_in s3_backend (st_cat (run_cycles s3_backend h1 st)) p = Some a ->
  level_in s3_backend (st_cat (run_cycles s3_backend (h1 ++ h2) st)) p = Some b ->
  a = b.
Proof. exact s3_level_monotone. Qed.
Print Assumptions C20_level_monotone_object_store.

Theorem C20_level_monotone_in_memory :
  forall (h1 h2 : list cinput) (st : cstate lcat) (p : path) (a b : N),
  local_Inv st ->
  level_in local_backend (st_cat (run_cycles local_backend h1 st)) p = Some a ->
  level_in local_backend (st_cat (run_cycles local_backend (h1 ++ h2) st)) p = Some b ->
  a = b.
Proof. exact local_level_monotone. Qed.
Print Assumptions C20_level_monotone_in_memory.

Theorem C20_no_resurrection_object_store :
  forall (h1 h2 h3 : list cinput) (st : cstate cat) (p : path) (a : N),
  s3_Inv st ->
  level_in s3_backend (st_cat (run_cycles s3_backend h1 st)) p = Some a ->
  level_in s3_backend (st_cat (run_cycles s3_backend (h1 ++ h2) st)) p = None ->
  level_in s3_backend (st_cat (run_cycles s3_backend (h1 ++ h2 ++ h3) st)) p = None.
Proof. exact s3_no_resurrection. Qed.
Print Assumptions C20_no_resurrection_object_store.

Theorem C20_no_resurrection_in_memory :
  forall (h1 h2 h3 : list cinput) (st : cstate lcat) (p : path) (a : N),
  local_Inv st ->
  level_in local_backend (st_cat (run_cycles local_backend h1 st)) p = Some a ->
  level_in local_backend (st_cat (run_cycles local_backend (h1 ++ h2) st)) p = None ->
  level_in local_backend (st_cat (run_cycles local_backend (h1 ++ h2 ++ h3) st)) p = None.
Proof. exact local_no_resurrection. Qed.
Print Assumptions C20_no_resurrection_in_memory.

(* Convergence: measure = 2 * #chunks + #level-0 chunks.  For all initial
   chunk sets, thresholds (0 and 1 included), target sizes and level limits:
   a cycle without a merge changes nothing; every merge strictly decreases
   the measure; so any history of cycles performs at most measure <= 3 *
   #chunks merges, one of the first measure + 1 cycles changes nothing, and
   with a fixed input the state is a fixpoint from that cycle on. *)
Theorem C20_converges_object_store :
  (forall i st, s3_Inv st -> merges_of (cycle_events s3_backend i st) = O -> cycle_state s3_backend i st = st) /\
  (forall i st, s3_Inv st -> merges_of (cycle_events s3_backend i st) <> O ->
                (measure s3_backend (cycle_state s3_backend i st) < measure s3_backend st)%nat) /\
  (forall h st, s3_Inv st ->
     (total_merges s3_backend h st + measure s3_backend (run_cycles s3_backend h st) <= measure s3_backend st)%nat) /\
  (forall st, (measure s3_backend st <= 3 * length (s3_rows (st_cat st)))%nat) /\
  (forall h st, s3_Inv st -> (measure s3_backend st < length h)%nat ->
     exists n, (n <= measure s3_backend st)%nat /\ (n < length h)%nat /\
               run_cycles s3_backend (firstn (S n) h) st = run_cycles s3_backend (firstn n h) st) /\
  (forall i st, s3_Inv st -> exists n, (n <= measure s3_backend st)%nat /\
     forall k, run_cycles s3_backend (repeat i (n + k)) st = run_cycles s3_backend (repeat i n) st).
Proof. exact s3_converges. Qed.
Print Assumptions C20_converges_object_store.

Theorem C20_converges_in_memory :
  (forall i st, local_Inv st -> merges_of (cycle_events local_backend i st) = O -> cycle_state local_backend i st = st) /\
  (forall i st, local_Inv st -> merges_of (cycle_events local_backend i st) <> O ->
                (measure local_backend (cycle_state local_backend i st) < measure local_backend st)%nat) /\
  (forall h st, local_Inv st ->
     (total_merges local_backend h st + measure local_backend (run_cycles local_backend h st) <= measure local_backend st)%nat) /\
  (forall st, (measure local_backend st <= 3 * length (local_rows (st_cat st)))%nat) /\
  (forall h st, local_Inv st -> (measure local_backend st < length h)%nat ->
     exists n, (n <= measure local_backend st)%nat /\ (n < length h)%nat /\
               run_cycles local_backend (firstn (S n) h) st = run_cycles local_backend (firstn n h) st) /\
  (forall i st, local_Inv st -> exists n, (n <= measure local_backend st)%nat /\
     forall k, run_cycles local_backend (repeat i (n + k)) st = run_cycles local_backend (repeat i n) st).
Proof. exact local_converges. Qed.
Print Assumptions C20_converges_in_memory.

(* the fault-free single-compactor cycle never takes the error exit of
   `complete_compaction(..).await?` (the registered target is always found) *)
Theorem C20_cycle_no_error_object_store :
  forall (i : cinput) (st : cstate cat), s3_Inv st -> snd (fst (cycle s3_backend i st)) <> CSErr.
Proof. exact s3_cycle_no_error. Qed.
Print Assumptions C20_cycle_no_error_object_store.

Theorem C20_cycle_no_error_in_memory :
  forall (i : cinput) (st : cstate lcat), local_Inv st -> snd (fst (cycle local_backend i st)) <> CSErr.
Proof. exact local_cycle_no_error. Qed.
Print Assumptions C20_cycle_no_error_in_memory.
