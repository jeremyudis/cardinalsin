(* C03: compaction never loses or duplicates stored rows (Model/Compactor.v).
   Two invariants carry the file.  [inv] holds along every schedule: what each
   node has read or written covers the rows of its sources, so a swap takes out
   of the catalog only rows its target holds, and every initial row stays
   reachable.  [invb] holds as long as the schedule stays outside the known
   classes (bad_step = 0) and counts: the reachable rows are the initial
   multiset plus the content of the targets registered and not yet swapped in.
   What a request of a node does is said once, by [node_step]: step_proc is a
   node_step, and each invariant is shown to survive a node_step. *)
From Coq Require Import Permutation.
From CS Require Import Base.Prelude Base.AList Base.ListFacts Model.Catalog Model.Compactor.
From CSGen Require Import Consts.
Open Scope N_scope.

Lemma aset_absent {V} k (v : V) l : ~ In k (akeys l) -> aset N.eqb k v l = l ++ [(k, v)].
Proof. apply (AList.aset_absent N.eqb Neqb_spec). Qed.

Lemma aget_remove_all srcs : forall (c : lcatalog) p,
  aget N.eqb p (cat_remove_all c srcs) = if memN p srcs then None else aget N.eqb p c.
Proof.
  unfold cat_remove_all. induction srcs as [|a r IH]; intros c p; simpl; [reflexivity|].
  rewrite IH. destruct (N.eqb_spec p a) as [<-|Hne]; simpl; (destruct (memN p r); [reflexivity|]).
  - apply (aget_adel_same N.eqb).
  - apply (aget_adel_other N.eqb Neqb_spec). exact Hne.
Qed.

Lemma in_keys_remove_all (c : lcatalog) srcs p :
  In p (akeys (cat_remove_all c srcs)) <-> In p (akeys c) /\ ~ In p srcs.
Proof.
  rewrite <- !(amem_in_keys N.eqb Neqb_spec), <- memN_false. unfold amem. rewrite aget_remove_all.
  destruct (memN p srcs); intuition discriminate.
Qed.

Lemma cat_complete_some c g t c' : cat_complete c g t = Some c' ->
  In t (akeys c) /\ ~ In t g /\
  (forall p, In p (akeys c') <-> In p (akeys c) /\ ~ In p g) /\
  aget N.eqb t c' = Some (max_level (fun p => aget N.eqb p c) g + 1) /\
  (forall p, p <> t -> aget N.eqb p c' = if memN p g then None else aget N.eqb p c).
Proof.
  unfold cat_complete. intros H.
  destruct (amem N.eqb t (cat_remove_all c g)) eqn:E; [|discriminate].
  inversion H; subst c'; clear H.
  apply (amem_in_keys N.eqb Neqb_spec) in E. pose proof (proj1 (in_keys_remove_all c g t) E) as [Hin Hng].
  split; [exact Hin|split; [exact Hng|split; [|split]]].
  - intros p. rewrite (keys_aset_present N.eqb Neqb_spec) by exact E. apply in_keys_remove_all.
  - apply (aget_aset_same N.eqb Neqb_spec).
  - intros p Hp. rewrite (aget_aset_other N.eqb Neqb_spec) by exact Hp. apply aget_remove_all.
Qed.

Lemma cat_complete_none c g t : cat_complete c g t = None -> ~ In t (akeys c) \/ In t g.
Proof.
  unfold cat_complete. destruct (amem N.eqb t (cat_remove_all c g)) eqn:E; [discriminate|].
  intros _. destruct (in_dec N.eq_dec t g) as [Hg|Hg]; [right; exact Hg|left].
  intros Hin. assert (H : In t (akeys (cat_remove_all c g))) by (apply in_keys_remove_all; split; assumption).
  apply (amem_in_keys N.eqb Neqb_spec) in H. congruence.
Qed.

Lemma nodup_cat_complete c g t c' : cat_complete c g t = Some c' -> NoDup (akeys c) -> NoDup (akeys c').
Proof.
  unfold cat_complete. destruct (amem N.eqb t (cat_remove_all c g)); [|discriminate].
  intros H Hnd. inversion H; subst. apply (nodup_aset N.eqb Neqb_spec). apply (nodup_fold_adel N.eqb). exact Hnd.
Qed.

Lemma get_set_proc s c p c' : get_proc (set_proc s c p) c' = if N.eqb c' c then p else get_proc s c'.
Proof.
  unfold get_proc, set_proc; simpl. destruct (N.eqb_spec c' c) as [->|Hne].
  - rewrite (aget_aset_same N.eqb Neqb_spec). reflexivity.
  - rewrite (aget_aset_other N.eqb Neqb_spec) by exact Hne. reflexivity.
Qed.

Lemma get_set_proc_same s c p : get_proc (set_proc s c p) c = p.
Proof. rewrite get_set_proc, N.eqb_refl. reflexivity. Qed.

Lemma get_set_proc_other s c p c' : c' <> c -> get_proc (set_proc s c p) c' = get_proc s c'.
Proof. intros H. rewrite get_set_proc. apply N.eqb_neq in H. rewrite H. reflexivity. Qed.

Lemma set_proc_twice s c p1 p2 : set_proc (set_proc s c p1) c p2 = set_proc s c p2.
Proof. unfold set_proc; simpl. rewrite (aset_twice N.eqb Neqb_spec). reflexivity. Qed.

Lemma get_proc_nil s c : s_procs s = [] -> get_proc s c = proc0.
Proof. intros H. unfold get_proc. rewrite H. reflexivity. Qed.

Lemma insertN_perm x l : Permutation (insertN x l) (x :: l).
Proof.
  induction l as [|y r IH]; simpl; [apply Permutation_refl|].
  destruct (x <=? y); [apply Permutation_refl|].
  eapply Permutation_trans; [apply perm_skip; exact IH|apply perm_swap].
Qed.

Lemma isort_perm l : Permutation (isort l) l.
Proof.
  induction l as [|x r IH]; simpl; [constructor|].
  eapply Permutation_trans; [apply insertN_perm|apply perm_skip; exact IH].
Qed.

Lemma nodupb_NoDup l : nodupb l = true -> NoDup l.
Proof.
  induction l as [|x r IH]; simpl; [constructor|].
  rewrite andb_true_iff, negb_true_iff. intros [H1 H2].
  constructor; [apply memN_false; exact H1|apply IH; exact H2].
Qed.

Lemma inclb_incl a b : inclb a b = true -> incl a b.
Proof.
  unfold inclb. rewrite forallb_forall. intros H x Hx. apply memN_In. apply H. exact Hx.
Qed.

Lemma disjointb_spec a b : disjointb a b = true -> forall x, In x a -> ~ In x b.
Proof.
  unfold disjointb. rewrite forallb_forall. intros H x Hx. specialize (H x Hx).
  rewrite negb_true_iff in H. apply memN_false. exact H.
Qed.

(* the node is out of the compaction proper: no group, no target *)
Definition gone (k : pc) : Prop :=
  match k with Idle | PJobFail _ | PLeaseFail _ => True | _ => False end.

(* [quiet s s']: s' has the catalog, the deletions and the nodes of s; leases
   may differ, the fresh path may be used up, with or without an object there *)
Inductive quiet (s : state) : state -> Prop :=
| q_same : quiet s s
| q_leases ls : quiet s (set_leases s ls)
| q_skip : quiet s (skip_path s)
| q_put rows : quiet s (put_object s rows).

(* an error, or the end of a group whose merge failed *)
Definition leaves (p p' : proc) : Prop :=
  gone (p_pc p') /\ p_snap p' = p_snap p /\ p_pending p' = p_pending p.

(* [node_step s c s' b]: a request of node c takes s to s'; b is the class
   bad_step gives the request.  What step_proc does, by the pc of c; the fault
   only shows where the outcomes differ for the invariants:
   - ns_leave stands for every error and for the end of a failed group.  A
     node whose registered target waits for the swap leaves only inside a
     known class (b <> 0).
   - ns_register: the registration takes effect either way; the node goes on
     to the swap (b = 0) or gets an error back and fails the job (K1, b = 1).
   - ns_swap: the swap takes effect; p' has seen the new catalog and is
     either on its way (PJobDone) or has got an error back and left (Idle). *)
Inductive node_step (s : state) (c : cid) : state -> N -> Prop :=
| ns_none : node_step s c s 0
| ns_leave s1 p' b :
    quiet s s1 -> leaves (get_proc s c) p' -> (b = 0 -> unswapped (p_pc (get_proc s c)) = []) ->
    node_step s c (set_proc s1 c p') b
| ns_end l g ls :
    p_pc (get_proc s c) = PLeaseDone l g ->
    node_step s c (set_proc (set_leases s ls) c (end_group (get_proc s c) l g)) 0
| ns_job l g :
    p_pc (get_proc s c) = PJob l g ->
    node_step s c (set_proc s c (with_pc (get_proc s c) (PRead l g g []))) 0
| ns_reads_done l g acc :
    p_pc (get_proc s c) = PRead l g [] acc ->
    node_step s c (set_proc s c (with_pc (get_proc s c) (after_reads l g acc))) 0
| ns_read l g q rest acc :
    p_pc (get_proc s c) = PRead l g (q :: rest) acc -> present s q = true ->
    node_step s c (set_proc s c (with_pc (get_proc s c)
      (match rest with
       | [] => after_reads l g (acc ++ rows_at s q)
       | _ => PRead l g rest (acc ++ rows_at s q)
       end))) 0
| ns_put l g rows :
    p_pc (get_proc s c) = PPut l g rows ->
    node_step s c (set_proc (put_object s rows) c (with_pc (get_proc s c) (PReg l g (s_next s) rows))) 0
| ns_register l g t rows k' b :
    p_pc (get_proc s c) = PReg l g t rows ->
    k' = PSwap l g t /\ b = 0 \/ k' = PJobFail l /\ b = 1 ->
    node_step s c (set_proc (set_cat s (cat_register (s_cat s) t)) c
                     (with_pc (see_catalog (get_proc s c) (cat_register (s_cat s) t)) k')) b
| ns_swap l g t cat' p' :
    p_pc (get_proc s c) = PSwap l g t -> cat_complete (s_cat s) g t = Some cat' ->
    p_snap p' = akeys cat' ++ p_snap (get_proc s c) -> p_pending p' = p_pending (get_proc s c) ->
    p_pc p' = PJobDone l g \/ p_pc p' = Idle ->
    node_step s c (set_proc (set_cat s cat') c p') 0
| ns_job_done l g :
    p_pc (get_proc s c) = PJobDone l g ->
    node_step s c (set_proc s c (with_pc (get_proc s c) (PLeaseDone l g))) 0.

Lemma step_proc_node_step s c f : node_step s c (fst (step_proc s c f)) (bad_step s (LStep c f)).
Proof.
  unfold step_proc, bad_step.
  destruct (p_pc (get_proc s c)) as [|l [|a r]|l g [|q rest] acc|l g rows|l g u rows|l g t|l g|l g|l|l] eqn:E;
    [apply ns_none| | |exact (ns_reads_done s c l g acc E)|..];
    destruct f; try destruct (present s q) eqn:Ep; try destruct (cat_complete (s_cat s) g t) eqn:Ecc; simpl.
  (* every outcome not named below is an error or the end of a failed group *)
  all: try (apply ns_leave; [constructor|repeat split; exact Logic.I|rewrite E; simpl; congruence]; fail).
  - (* PJob, FOk, group not empty *) exact (ns_job s c l _ E).
  - (* PRead, FOk, object present *) exact (ns_read s c l g q rest acc E Ep).
  - (* PPut, FOk *) exact (ns_put s c l g rows E).
  - (* PReg, FOk *) apply (ns_register s c l g u rows _ _ E). left; auto.
  - (* PReg, FAfter *) apply (ns_register s c l g u rows _ _ E). right; auto.
  - (* PSwap, FOk, target catalogued *) apply (ns_swap s c l g t _ _ E Ecc); [reflexivity..|left; reflexivity].
  - (* PSwap, FAfter, target catalogued *) apply (ns_swap s c l g t _ _ E Ecc); [reflexivity..|right; reflexivity].
  - (* PJobDone, FOk *) exact (ns_job_done s c l g E).
  - (* PLeaseDone, FOk *) exact (ns_end s c l g _ E).
Qed.

Definition cat_keys (s : state) : list path := akeys (s_cat s).
Definition pcof (s : state) (c : cid) : pc := p_pc (get_proc s c).
Definition content_of (s : state) (p : path) : option (list row) := aget N.eqb p (s_content s).

(* the sources a node still has to see through: [claims] of the model, and
   after the swap (PJobDone, PLeaseDone) the group that is out of the catalog
   but not yet scheduled for deletion *)
Definition group_of (k : pc) : list path :=
  match k with
  | PJob _ g | PRead _ g _ _ | PPut _ g _ | PReg _ g _ _ | PSwap _ g _
  | PJobDone _ g | PLeaseDone _ g => g
  | _ => []
  end.
Definition target_of (k : pc) : option path :=
  match k with PReg _ _ t _ | PSwap _ _ t => Some t | _ => None end.

(* paths some node may mention: catalogued, deleted, or seen in a catalog *)
Definition seen (s : state) (p : path) : Prop :=
  In p (cat_keys s) \/ In p (s_deleted s) \/ exists c, In p (p_snap (get_proc s c)).

(* `rows` contains every row of every source object (objects are write-once) *)
Definition covers (s : state) (g : list path) (rows : list row) : Prop :=
  forall p rs, In p g -> content_of s p = Some rs -> incl rs rows.

(* what the store and the catalog owe a node at pc k.  Up to the swap: the rows
   read / written / registered so far contain the rows of the sources, which is
   what lets the swap drop the sources.  After the swap: the sources are out of
   the catalog, which is what lets ns_end put them on the pending list (i_pend). *)
Definition pc_ok (s : state) (k : pc) : Prop :=
  match k with
  | PRead _ g todo acc =>
      incl todo g /\ forall p rs, In p g -> ~ In p todo -> content_of s p = Some rs -> incl rs acc
  | PPut _ g rows => covers s g rows
  | PReg _ g t rows => covers s g rows /\ content_of s t = Some rows /\ ~ seen s t
  | PSwap _ g t => exists rowsT, content_of s t = Some rowsT /\ covers s g rowsT
  | PJobDone _ g | PLeaseDone _ g => forall p, In p g -> ~ In p (cat_keys s)
  | _ => True
  end.

(* the invariant behind never_unqueryable; R0 are the rows to keep reachable *)
Record inv (R0 : list row) (s : state) : Prop := mkInv {
  i_fresh_seen : forall p, seen s p -> p < s_next s;
  i_fresh_content : forall p, In p (akeys (s_content s)) -> p < s_next s;
  i_fresh_target : forall c t, target_of (pcof s c) = Some t -> t < s_next s;
  i_snap : forall c, incl (group_of (pcof s c)) (p_snap (get_proc s c)) /\
                     incl (p_pending (get_proc s c)) (p_snap (get_proc s c));
  i_pend : forall c p, In p (p_pending (get_proc s c)) -> ~ In p (cat_keys s);
  i_del : forall p, In p (s_deleted s) -> ~ In p (cat_keys s);
  i_distinct : forall c c' t, c <> c' -> target_of (pcof s c) = Some t -> target_of (pcof s c') <> Some t;
  i_pc : forall c, pc_ok s (pcof s c);
  i_rows : forall r, In r R0 ->
           exists p rs, In p (cat_keys s) /\ ~ In p (s_deleted s) /\ content_of s p = Some rs /\ In r rs
}.

Arguments i_fresh_seen {R0 s} _.
Arguments i_fresh_content {R0 s} _.
Arguments i_fresh_target {R0 s} _.
Arguments i_snap {R0 s} _.
Arguments i_pend {R0 s} _.
Arguments i_del {R0 s} _.
Arguments i_distinct {R0 s} _.
Arguments i_pc {R0 s} _.
Arguments i_rows {R0 s} _.

Lemma pcof_set_proc s c p c' : pcof (set_proc s c p) c' = if N.eqb c' c then p_pc p else pcof s c'.
Proof. unfold pcof. rewrite get_set_proc. destruct (N.eqb c' c); reflexivity. Qed.

Lemma seen_snap s c q : In q (p_snap (get_proc s c)) -> seen s q.
Proof. intros H. right; right. exists c. exact H. Qed.

Lemma seen_set_proc s c p q : seen (set_proc s c p) q -> seen s q \/ In q (p_snap p).
Proof.
  intros [H|[H|[c' H]]].
  - left; left; exact H.
  - left; right; left; exact H.
  - rewrite get_set_proc in H. destruct (N.eqb c' c); [right; exact H|left; exact (seen_snap s c' q H)].
Qed.

Lemma seen_lt R0 s p : inv R0 s -> seen s p -> p < s_next s.
Proof. intros I. apply (i_fresh_seen I). Qed.

Lemma group_lt {R0 s c p} : inv R0 s -> In p (group_of (pcof s c)) -> p < s_next s.
Proof. intros I H. apply (i_fresh_seen I). apply (seen_snap s c). apply (proj1 (i_snap I c)). exact H. Qed.

(* pc_ok reads the content of the group and of the target, whether the group
   is catalogued and whether the target has been seen *)
Lemma pc_ok_transfer s s' k :
  (forall p, In p (group_of k) \/ target_of k = Some p -> content_of s' p = content_of s p) ->
  (forall p, In p (group_of k) -> In p (cat_keys s') -> In p (cat_keys s)) ->
  (forall t, target_of k = Some t -> seen s' t -> seen s t) ->
  pc_ok s k -> pc_ok s' k.
Proof.
  intros Hc Hk Hs. unfold pc_ok, covers. destruct k; simpl in Hc, Hk, Hs; auto.
  - (* PRead *) intros [H1 H2]. split; [exact H1|]. intros p rs Hp. rewrite Hc by auto. apply H2. exact Hp.
  - (* PPut *) intros H p rs Hp. rewrite Hc by auto. apply H. exact Hp.
  - (* PReg *) intros [H1 [H2 H3]]. split; [|split].
    + intros p rs Hp. rewrite Hc by auto. apply H1. exact Hp.
    + rewrite Hc by auto. exact H2.
    + intros Hn. apply H3. apply (Hs t); auto.
  - (* PSwap *) intros [rowsT [H1 H2]]. exists rowsT. split; [rewrite Hc by auto; exact H1|].
    intros p rs Hp. rewrite Hc by auto. apply H2. exact Hp.
  - (* PJobDone *) intros H p Hp Hin. apply (H p Hp). apply Hk; auto.
  - (* PLeaseDone *) intros H p Hp Hin. apply (H p Hp). apply Hk; auto.
Qed.

(* Nodes stay.  The store may grow by objects at paths that were fresh.  What
   enters the catalog was never seen (so it is in no group, snapshot or pending
   list) and is nobody's target; what is deleted was seen and is not catalogued. *)
Lemma inv_shared R0 s s' :
  inv R0 s -> s_procs s' = s_procs s -> s_next s <= s_next s' ->
  (forall p, In p (akeys (s_content s')) -> p < s_next s') ->
  (forall p, p < s_next s -> content_of s' p = content_of s p) ->
  (forall p, In p (cat_keys s') -> In p (cat_keys s) \/
     ~ seen s p /\ p < s_next s /\ forall c, target_of (pcof s c) <> Some p) ->
  (forall p, In p (s_deleted s') -> In p (s_deleted s) \/ seen s p /\ ~ In p (cat_keys s')) ->
  (forall r, In r R0 ->
     exists p rs, In p (cat_keys s') /\ ~ In p (s_deleted s') /\ content_of s p = Some rs /\ In r rs) ->
  inv R0 s'.
Proof.
  intros I H5 Hn Hf Hc Hk Hd Hr.
  assert (Hg : forall c, get_proc s' c = get_proc s c) by (intros c; unfold get_proc; rewrite H5; reflexivity).
  assert (Hp : forall c, pcof s' c = pcof s c) by (intros c; unfold pcof; rewrite Hg; reflexivity).
  assert (Hold : forall p, seen s p -> In p (cat_keys s') -> In p (cat_keys s)).
  { intros p Hs Hin. destruct (Hk p Hin) as [H|[H _]]; [exact H|contradiction]. }
  assert (Hs : forall p, seen s' p -> seen s p \/ p < s_next s /\ forall c, target_of (pcof s c) <> Some p).
  { intros p [H|[H|[c H]]].
    - destruct (Hk p H) as [H'|[_ H']]; [left; left; exact H'|right; exact H'].
    - left. destruct (Hd p H) as [H'|[H' _]]; [right; left; exact H'|exact H'].
    - left. rewrite Hg in H. exact (seen_snap s c p H). }
  assert (Hlt : forall p, seen s' p -> p < s_next s).
  { intros p Hx. destruct (Hs p Hx) as [H|[H _]]; [exact (i_fresh_seen I p H)|exact H]. }
  constructor.
  - (* i_fresh_seen *) intros p Hx. apply Hlt in Hx. lia.
  - (* i_fresh_content *) exact Hf.
  - (* i_fresh_target *) intros c t. rewrite Hp. intros Ht. apply (i_fresh_target I) in Ht. lia.
  - (* i_snap *) intros c. rewrite Hp, Hg. apply (i_snap I).
  - (* i_pend *) intros c p. rewrite Hg. intros Hx Hin. apply (i_pend I c p Hx). apply Hold; [|exact Hin].
    apply (seen_snap s c). apply (proj2 (i_snap I c)). exact Hx.
  - (* i_del *) intros p Hx Hin. destruct (Hd p Hx) as [H|[_ H]]; [|exact (H Hin)].
    apply (i_del I p H). apply Hold; [right; left; exact H|exact Hin].
  - (* i_distinct *) intros c c' t. rewrite !Hp. apply (i_distinct I).
  - (* i_pc *) intros c. rewrite Hp. apply pc_ok_transfer with (s := s); [| | |apply (i_pc I)].
    + intros p [Hin|Ht]; apply Hc; [exact (group_lt I Hin)|exact (i_fresh_target I c p Ht)].
    + intros p Hx. apply Hold. apply (seen_snap s c). apply (proj1 (i_snap I c)). exact Hx.
    + intros t Ht Hx. destruct (Hs t Hx) as [H|[_ H]]; [exact H|destruct (H c Ht)].
  - (* i_rows *) intros r Hx. destruct (Hr r Hx) as [p [rs [A H]]]. exists p, rs. rewrite Hc; [auto|]. apply Hlt. left; exact A.
Qed.

(* nodes, catalog and deletions stay; the store may grow at fresh paths *)
Lemma inv_grow R0 s s' :
  s_cat s' = s_cat s -> s_deleted s' = s_deleted s -> s_procs s' = s_procs s ->
  s_next s <= s_next s' ->
  (forall p, In p (akeys (s_content s')) -> p < s_next s') ->
  (forall p, p < s_next s -> content_of s' p = content_of s p) ->
  inv R0 s -> inv R0 s'.
Proof.
  intros H1 H3 H5 Hn Hf Hc I.
  apply inv_shared with (s := s); unfold cat_keys; rewrite ?H1, ?H3; auto.
  (* the premises are hypotheses, or trivial since catalog and deletions stay; left: the rows *)
  exact (i_rows I).
Qed.

(* inv reads the catalog, the store, the deletions, the fresh path and the
   nodes; leases, clock and lease counter it does not read *)
Lemma inv_ext R0 s s' :
  s_cat s' = s_cat s -> s_content s' = s_content s -> s_deleted s' = s_deleted s ->
  s_next s' = s_next s -> s_procs s' = s_procs s -> inv R0 s -> inv R0 s'.
Proof.
  intros H1 H2 H3 H4 H5 I. apply inv_grow with (s := s); auto.
  - rewrite H4. apply N.le_refl.
  - rewrite H2, H4. exact (i_fresh_content I).
  - intros p _. unfold content_of. rewrite H2. reflexivity.
Qed.

Lemma inv_set_leases R0 s ls : inv R0 s -> inv R0 (set_leases s ls).
Proof. apply inv_ext; reflexivity. Qed.

Lemma content_put_old s rows p : p <> s_next s -> content_of (put_object s rows) p = content_of s p.
Proof.
  intros H. unfold content_of, put_object; simpl. destruct (aget N.eqb p (s_content s)) eqn:E.
  - apply (aget_app_l N.eqb). exact E.
  - rewrite (aget_app_notin N.eqb Neqb_spec) by (apply (aget_none_notin N.eqb Neqb_spec); exact E).
    simpl. apply N.eqb_neq in H. rewrite H. reflexivity.
Qed.

Lemma content_put_new s rows :
  ~ In (s_next s) (akeys (s_content s)) -> content_of (put_object s rows) (s_next s) = Some rows.
Proof.
  intros H. unfold content_of, put_object; simpl.
  rewrite (aget_app_notin N.eqb Neqb_spec) by exact H. simpl. rewrite N.eqb_refl. reflexivity.
Qed.

Lemma inv_put R0 s rows : inv R0 s -> inv R0 (put_object s rows).
Proof.
  intros I. apply inv_grow with (s := s); auto; simpl.
  - lia.
  - intros p. rewrite akeys_app, in_app_iff. simpl.
    intros [H|[<-|[]]]; [apply (i_fresh_content I) in H|]; lia.
  - intros p Hp. apply content_put_old. lia.
Qed.

Lemma inv_skip R0 s : inv R0 s -> inv R0 (skip_path s).
Proof.
  intros I. apply inv_grow with (s := s); auto; simpl; [lia|].
  intros p H. apply (i_fresh_content I) in H. lia.
Qed.

(* a node changes its own volatile state: what it knows comes from what it
   knew and from the current catalog *)
Lemma inv_set_proc R0 s c p' :
  inv R0 s ->
  incl (p_snap p') (akeys (s_cat s) ++ p_snap (get_proc s c)) ->
  incl (group_of (p_pc p')) (p_snap p') ->
  incl (p_pending p') (p_snap p') ->
  (forall q, In q (p_pending p') -> ~ In q (cat_keys s)) ->
  (forall t, target_of (p_pc p') = Some t ->
     target_of (pcof s c) = Some t \/ (t < s_next s /\ forall c', target_of (pcof s c') <> Some t)) ->
  pc_ok s (p_pc p') ->
  inv R0 (set_proc s c p').
Proof.
  intros I Hsnap Hg Hp Hpc Ht Hok.
  assert (Hseen : forall q, seen (set_proc s c p') q -> seen s q).
  { intros q Hq. destruct (seen_set_proc _ _ _ _ Hq) as [H|H]; [exact H|].
    apply Hsnap, in_app_iff in H. destruct H as [H|H]; [left; exact H|exact (seen_snap s c q H)]. }
  constructor.
  - (* i_fresh_seen *) intros p Hs. apply (i_fresh_seen I). apply Hseen. exact Hs.
  - (* i_fresh_content *) exact (i_fresh_content I).
  - (* i_fresh_target *) intros c' t. rewrite pcof_set_proc. destruct (N.eqb_spec c' c) as [->|_]; [|apply (i_fresh_target I)].
    intros H. destruct (Ht t H) as [H1|[H1 _]]; [exact (i_fresh_target I c t H1)|exact H1].
  - (* i_snap *) intros c'. rewrite pcof_set_proc, get_set_proc. destruct (N.eqb c' c); [split; assumption|apply (i_snap I)].
  - (* i_pend *) intros c' p. rewrite get_set_proc. destruct (N.eqb c' c); [apply Hpc|apply (i_pend I)].
  - (* i_del *) exact (i_del I).
  - (* i_distinct *) intros c1 c2 t Hne. rewrite !pcof_set_proc.
    destruct (N.eqb_spec c1 c) as [->|_]; destruct (N.eqb_spec c2 c) as [->|_].
    + contradiction.
    + intros H. destruct (Ht t H) as [H1|[_ H1]]; [apply (i_distinct I c c2 t Hne H1)|apply H1].
    + intros H H'. destruct (Ht t H') as [H1|[_ H1]]; [apply (i_distinct I c1 c t Hne H H1)|apply (H1 c1 H)].
    + apply (i_distinct I c1 c2 t Hne).
  - (* i_pc *) intros c'. rewrite pcof_set_proc.
    apply pc_ok_transfer with (s := s); [reflexivity|auto|intros t _; apply Hseen|].
    destruct (N.eqb c' c); [exact Hok|apply (i_pc I)].
  - (* i_rows *) exact (i_rows I).
Qed.

(* the node moves on without taking a new target, or leaves the compaction (no
   group left); it may look at the catalog; its pending list stays *)
Lemma inv_pc R0 s c p' :
  inv R0 s ->
  p_snap p' = p_snap (get_proc s c) \/ p_snap p' = akeys (s_cat s) ++ p_snap (get_proc s c) ->
  p_pending p' = p_pending (get_proc s c) ->
  incl (group_of (p_pc p')) (p_snap (get_proc s c)) ->
  target_of (p_pc p') = None \/ target_of (p_pc p') = target_of (pcof s c) ->
  pc_ok s (p_pc p') ->
  inv R0 (set_proc s c p').
Proof.
  intros I Hs Hp Hg Ht Hok.
  assert (Hs1 : incl (p_snap (get_proc s c)) (p_snap p') /\
                incl (p_snap p') (akeys (s_cat s) ++ p_snap (get_proc s c)))
    by (destruct Hs as [-> | ->]; auto with datatypes).
  apply inv_set_proc; auto.
  - apply Hs1.
  - eapply incl_tran; [exact Hg|apply Hs1].
  - rewrite Hp. eapply incl_tran; [apply (i_snap I c)|apply Hs1].
  - rewrite Hp. apply (i_pend I c).
  - intros t. destruct Ht as [-> | ->]; [discriminate|auto].
Qed.

(* register_chunk of a path nobody has seen *)
Lemma inv_cat_add R0 s t :
  inv R0 s -> ~ seen s t -> t < s_next s -> (forall c, target_of (pcof s c) <> Some t) ->
  inv R0 (set_cat s (cat_register (s_cat s) t)).
Proof.
  intros I Hns Hlt Hnt.
  assert (Hk : forall p, In p (cat_keys (set_cat s (cat_register (s_cat s) t))) <-> In p (cat_keys s) \/ t = p).
  { intros p. unfold cat_keys, cat_register; simpl.
    rewrite (keys_aset_absent N.eqb Neqb_spec) by (intros H; apply Hns; left; exact H).
    rewrite in_app_iff. simpl. tauto. }
  apply inv_shared with (s := s); [exact I|reflexivity|apply N.le_refl|exact (i_fresh_content I)|reflexivity| |auto| ].
  - intros p Hp. apply Hk in Hp. destruct Hp as [Hp| <-]; auto.
  - intros r Hr. destruct (i_rows I r Hr) as [p [rs [A H]]]. exists p, rs. split; [apply Hk; left; exact A|exact H].
Qed.

(* complete_compaction: the sources leave the catalog, the target covers their rows *)
Lemma inv_cat_swap R0 s g t c' rowsT :
  inv R0 s -> cat_complete (s_cat s) g t = Some c' ->
  content_of s t = Some rowsT -> covers s g rowsT ->
  inv R0 (set_cat s c').
Proof.
  intros I Hc Ht Hcov.
  destruct (cat_complete_some _ _ _ _ Hc) as [Htin [Htg [Hk _]]].
  change (forall p, In p (cat_keys (set_cat s c')) <-> In p (cat_keys s) /\ ~ In p g) in Hk.
  apply inv_shared with (s := s); [exact I|reflexivity|apply N.le_refl|exact (i_fresh_content I)|reflexivity| |auto| ].
  - intros p Hp. left. apply Hk in Hp. tauto.
  - intros r Hr. destruct (i_rows I r Hr) as [p [rs [A [B [C D]]]]].
    destruct (in_dec N.eq_dec p g) as [E|E].
    + exists t, rowsT. repeat split.
      * apply Hk. split; assumption.
      * intros Hd. exact (i_del I t Hd Htin).
      * exact Ht.
      * apply (Hcov p rs E C). exact D.
    + exists p, rs. repeat split; auto. apply Hk. split; assumption.
Qed.

(* GC deletes an object that is scheduled for deletion *)
Lemma inv_del_obj R0 s q :
  inv R0 s -> ~ In q (cat_keys s) -> seen s q -> inv R0 (del_object s q).
Proof.
  intros I Hnk Hq. apply inv_shared with (s := s); [exact I|reflexivity|apply N.le_refl|exact (i_fresh_content I)|reflexivity|auto| | ].
  - intros p [<-|Hp]; auto.
  - intros r Hr. destruct (i_rows I r Hr) as [p [rs [A [B H]]]].
    exists p, rs. split; [exact A|split; [|exact H]]. intros [<-|Hd]; [exact (Hnk A)|exact (B Hd)].
Qed.

Lemma rows_at_present s q : present s q = true ->
  exists rs, content_of s q = Some rs /\ rows_at s q = rs.
Proof.
  unfold present, rows_at, content_of, amem. rewrite andb_true_iff, negb_true_iff.
  intros [H1 H2]. rewrite H2. destruct (aget N.eqb q (s_content s)); [eauto|discriminate].
Qed.

Lemma incl_isort l : incl l (isort l).
Proof. intros x Hx. eapply Permutation_in; [apply Permutation_sym; apply isort_perm|exact Hx]. Qed.

Lemma inv_after_reads R0 s c l g acc :
  inv R0 s -> incl g (p_snap (get_proc s c)) -> covers s g acc ->
  inv R0 (set_proc s c (with_pc (get_proc s c) (after_reads l g acc))).
Proof.
  intros I Hg Hcov. unfold after_reads. destruct acc as [|a r].
  - apply inv_pc; simpl; auto using incl_nil_l.
  - apply inv_pc; simpl; auto. intros p rs Hp Hc. eapply incl_tran; [apply (Hcov p rs Hp Hc)|apply incl_isort].
Qed.

(* register_chunk(target): the node drops its job, the target is catalogued,
   the node takes up its new pc *)
Lemma inv_register R0 s c l g t rows p' :
  inv R0 s -> pcof s c = PReg l g t rows ->
  p_snap p' = akeys (cat_register (s_cat s) t) ++ p_snap (get_proc s c) ->
  p_pending p' = p_pending (get_proc s c) ->
  p_pc p' = PSwap l g t \/ p_pc p' = PJobFail l ->
  inv R0 (set_proc (set_cat s (cat_register (s_cat s) t)) c p').
Proof.
  intros I E Hsn Hpe Hk.
  pose proof (i_pc I c) as Hok. pose proof (i_snap I c) as [Hgrp Hpend]. rewrite E in Hok, Hgrp.
  destruct Hok as [Hcov [Hct Hns]].
  assert (Hlt : t < s_next s) by (apply (i_fresh_target I c); rewrite E; reflexivity).
  set (pf := with_pc (get_proc s c) (PJobFail l)).
  assert (Ia : inv R0 (set_proc s c pf)) by (apply inv_pc; simpl; auto using incl_nil_l).
  assert (Hta : forall c', target_of (pcof (set_proc s c pf) c') <> Some t).
  { intros c'. rewrite pcof_set_proc. destruct (N.eqb_spec c' c) as [->|Hne]; [discriminate|].
    apply (i_distinct I c c' t); [auto|rewrite E; reflexivity]. }
  assert (Hsa : ~ seen (set_proc s c pf) t).
  { intros H. apply Hns. destruct (seen_set_proc _ _ _ _ H) as [H'|H']; [exact H'|exact (seen_snap s c t H')]. }
  assert (Ib : inv R0 (set_proc (set_cat s (cat_register (s_cat s) t)) c pf))
    by exact (inv_cat_add R0 _ t Ia Hsa Hlt Hta).
  rewrite <- (set_proc_twice _ c pf). apply inv_set_proc.
  - exact Ib.
  - rewrite get_set_proc_same, Hsn. apply incl_refl.
  - rewrite Hsn. destruct Hk as [-> | ->]; simpl; auto with datatypes. apply incl_nil_l.
  - rewrite Hsn, Hpe. auto with datatypes.
  - intros q Hq. apply (i_pend Ib c). rewrite get_set_proc_same. rewrite Hpe in Hq. exact Hq.
  - intros t' Ht'. destruct Hk as [Hk|Hk]; rewrite Hk in Ht'; [|discriminate].
    inversion Ht'; subst t'. right. split; [exact Hlt|exact Hta].
  - destruct Hk as [-> | ->]; [|exact Logic.I]. exists rows. split; [exact Hct|exact Hcov].
Qed.

Lemma gone_inv s k : gone k -> group_of k = [] /\ target_of k = None /\ pc_ok s k.
Proof. destruct k; intros []; repeat split. Qed.

Lemma inv_leave R0 s s1 c p' :
  inv R0 s -> quiet s s1 -> leaves (get_proc s c) p' -> inv R0 (set_proc s1 c p').
Proof.
  intros I Hq [Hk [Hs Hp]].
  assert (I1 : inv R0 s1) by (destruct Hq; auto using inv_set_leases, inv_skip, inv_put).
  assert (Eg : get_proc s1 c = get_proc s c) by (destruct Hq; reflexivity).
  rewrite <- Eg in Hs, Hp.
  destruct (gone_inv s1 _ Hk) as [Hg [Ht Hok]].
  apply inv_pc; auto. rewrite Hg. apply incl_nil_l.
Qed.

Lemma node_step_inv R0 s c s' b : inv R0 s -> node_step s c s' b -> inv R0 s'.
Proof.
  intros I H. pose proof (i_pc I c) as Hok. pose proof (i_snap I c) as [Hgrp Hpend]. unfold pcof in Hok, Hgrp.
  destruct H as [|s1 p' b Hq Hl _|l g ls E|l g E|l g acc E|l g q rest acc E Ep|l g rows E
                 |l g t rows k' b E Hk|l g t cat' p' E Hcc Hsn Hpe Hk|l g E];
    try (rewrite E in Hok, Hgrp; simpl in Hok, Hgrp).
  - (* ns_none *) exact I.
  - (* ns_leave *) eapply inv_leave; eauto.
  - (* ns_end: the sources are scheduled for deletion *)
    apply inv_set_proc; simpl; auto using inv_set_leases, incl_nil_l with datatypes.
    + (* pending paths are not catalogued *) intros q Hq. apply in_app_iff in Hq. destruct Hq as [Hq|Hq]; [apply Hok; exact Hq|apply (i_pend I c); exact Hq].
    + (* no target *) discriminate.
  - (* ns_job *) apply inv_pc; simpl; auto. split; [apply incl_refl|]. intros q rs Hq Hn. contradiction.
  - (* ns_reads_done *) apply inv_after_reads; auto. intros p rs Hp. apply (proj2 Hok); auto.
  - (* ns_read: the rows of q join what has been read *)
    destruct Hok as [Htodo Hacc]. destruct (rows_at_present _ _ Ep) as [rsq [Hcq ->]].
    assert (Hcov : forall p rs, In p g -> ~ In p rest -> content_of s p = Some rs -> incl rs (acc ++ rsq)).
    { intros p rs Hp Hn Hc. destruct (N.eq_dec p q) as [->|Hne].
      - rewrite Hcq in Hc. inversion Hc; subst. apply incl_appr, incl_refl.
      - apply incl_appl. apply (Hacc p rs Hp); [|exact Hc]. intros [H|H]; [congruence|contradiction]. }
    destruct rest as [|q2 rest2].
    + apply inv_after_reads; auto. intros p rs Hp. apply Hcov; auto.
    + apply inv_pc; simpl; auto. split; [|exact Hcov]. intros x Hx. apply Htodo. right. exact Hx.
  - (* ns_put: the path was fresh, so it is nobody's target, had no content and was not seen *)
    pose proof (inv_put R0 s rows I) as I1. pose proof (i_pc I1 c) as Hok1.
    change (pcof (put_object s rows) c) with (p_pc (get_proc s c)) in Hok1. rewrite E in Hok1.
    apply inv_set_proc; simpl; auto with datatypes.
    + (* pending paths are not catalogued *) exact (i_pend I1 c).
    + (* the target is new *) intros t Ht. inversion Ht; subst t. right. split; [lia|].
      intros c' Hc'. apply (i_fresh_target I) in Hc'. lia.
    + (* pc_ok of PReg *) split; [exact Hok1|split].
      * apply content_put_new. intros Hin. apply (i_fresh_content I) in Hin. lia.
      * intros Hs. apply (i_fresh_seen I (s_next s)) in Hs. lia.
  - (* ns_register *) eapply inv_register; eauto. simpl. tauto.
  - (* ns_swap: complete_compaction took effect, the sources are out of the catalog *)
    destruct Hok as [rowsT [Hct Hcov]].
    pose proof (inv_cat_swap R0 s g t cat' rowsT I Hcc Hct Hcov) as Ib.
    destruct (cat_complete_some _ _ _ _ Hcc) as [_ [_ [Hkeys _]]].
    apply inv_pc; auto; destruct Hk as [-> | ->]; simpl; auto using incl_nil_l.
    intros p Hp Hin. apply Hkeys in Hin. tauto.
  - (* ns_job_done *) apply inv_pc; simpl; auto.
Qed.

Lemma step_start_inv R0 s c g f : inv R0 s -> inv R0 (fst (step_start s c g f)).
Proof.
  intros I. unfold step_start.
  destruct (start_ok s c g) eqn:Eok; simpl; [|exact I].
  destruct f; simpl; try exact I;
    (destruct (lease_conflict (s_clock s) (drop_expired (s_clock s) (s_leases s)) g); simpl;
     [destruct (s_local s); [apply inv_set_leases|]; exact I|]).
  - (* FOk: the lease is stored, the node starts on the group *)
    unfold start_ok in Eok. destruct (p_pc (get_proc s c)) eqn:E; try discriminate.
    rewrite !andb_true_iff in Eok. destruct Eok as [[_ Hincl] _].
    apply inv_set_proc; simpl; auto with datatypes.
    + apply inv_ext with (s := s); auto.
    + (* the group was seen *) apply inclb_incl. exact Hincl.
    + (* so were the pending paths *) apply (proj2 (i_snap I c)).
    + (* which are not catalogued *) apply (i_pend I c).
    + (* no target *) discriminate.
  - (* FAfter: the lease is stored, the node does not start *) apply inv_ext with (s := s); auto.
Qed.

Lemma step_inv R0 s lb : inv R0 s -> inv R0 (fst (step s lb)).
Proof.
  intros I. destruct lb; simpl.
  - (* LList *) apply inv_pc; simpl; auto; [apply (i_snap I c)|apply (i_pc I c)].
  - (* LStart *) apply step_start_inv. exact I.
  - (* LStep *) exact (node_step_inv R0 s c _ _ I (step_proc_node_step s c f)).
  - (* LRenew *) destruct (memN l (p_renew (get_proc s c))); simpl; [|exact I].
    destruct (lease_renew (s_clock s) (renew_ttl s) l (s_leases s)); simpl; [apply inv_set_leases; exact I|].
    apply inv_pc; simpl; auto; [apply (i_snap I c)|apply (i_pc I c)].
  - (* LDel *) destruct (memN p (p_pending (get_proc s c))) eqn:Em; simpl; [|exact I].
    apply memN_In in Em.
    set (s1 := set_proc s c _).
    assert (I1 : inv R0 s1).
    { apply inv_set_proc; simpl; auto with datatypes.
      - (* the group was seen *) apply (proj1 (i_snap I c)).
      - (* so were the pending paths *) intros q Hq. apply In_removeN in Hq. apply (proj2 (i_snap I c)). tauto.
      - (* which are not catalogued *) intros q Hq. apply In_removeN in Hq. apply (i_pend I c). tauto.
      - apply (i_pc I c). }
    assert (I2 : inv R0 (del_object s1 p)).
    { apply inv_del_obj; [exact I1|apply (i_pend I c); exact Em|].
      apply (seen_snap s1 c). unfold s1. rewrite get_set_proc_same. simpl.
      apply (proj2 (i_snap I c)). exact Em. }
    destruct f; assumption.
  - (* LScav *) apply inv_set_leases. exact I.
  - (* LCrash *) apply inv_set_proc; simpl; auto using incl_nil_l. discriminate.
  - (* LTick *) apply inv_ext with (s := s); auto.
Qed.

Lemma run_inv R0 sched : forall s, inv R0 s -> inv R0 (run sched s).
Proof.
  unfold run. induction sched as [|lb r IH]; intros s I; simpl; [exact I|].
  apply IH. apply step_inv. exact I.
Qed.

Lemma in_visible s r :
  In r (visible s) <->
  exists p rs, In p (cat_keys s) /\ ~ In p (s_deleted s) /\ content_of s p = Some rs /\ In r rs.
Proof.
  unfold visible, cat_keys, akeys. rewrite in_flat_map. split.
  - intros [[p lv] [Hin Hr]]. simpl in Hr. unfold rows_at in Hr.
    destruct (memN p (s_deleted s)) eqn:Ed; [destruct Hr|].
    destruct (aget N.eqb p (s_content s)) as [rs|] eqn:Ec; [|destruct Hr].
    exists p, rs. repeat split; auto.
    + change p with (fst (p, lv)). apply in_map. exact Hin.
    + apply memN_false. exact Ed.
  - intros [p [rs [Hk [Hd [Hc Hr]]]]]. apply in_map_iff in Hk. destruct Hk as [[p' lv] [Hp Hin]].
    simpl in Hp. subst p'. exists (p, lv). split; [exact Hin|]. simpl. unfold rows_at.
    apply memN_false in Hd. rewrite Hd. unfold content_of in Hc. rewrite Hc. exact Hr.
Qed.

(* a dataset nobody works on yet: every path mentioned anywhere is below the
   fresh-path counter and no catalogued object has been deleted *)
Definition wf0 (s : state) : Prop :=
  s_procs s = [] /\
  (forall p, In p (cat_keys s) -> p < s_next s) /\
  (forall p, In p (akeys (s_content s)) -> p < s_next s) /\
  (forall p, In p (s_deleted s) -> p < s_next s /\ ~ In p (cat_keys s)).

Lemma wf0_inv s : wf0 s -> inv (visible s) s.
Proof.
  intros [Hp [Hk [Hc Hd]]].
  assert (Hg : forall c, get_proc s c = proc0) by (intros c; apply get_proc_nil; exact Hp).
  constructor.
  - (* i_fresh_seen *) intros p [H|[H|[c H]]]; [apply Hk; exact H|apply Hd; exact H|rewrite Hg in H; destruct H].
  - (* i_fresh_content *) exact Hc.
  - (* i_fresh_target *) intros c t. unfold pcof. rewrite Hg. discriminate.
  - (* i_snap *) intros c. unfold pcof. rewrite Hg. split; intros x [].
  - (* i_pend *) intros c p. rewrite Hg. intros [].
  - (* i_del *) intros p H. apply Hd. exact H.
  - (* i_distinct *) intros c c' t _. unfold pcof. rewrite Hg. discriminate.
  - (* i_pc *) intros c. unfold pcof. rewrite Hg. exact Logic.I.
  - (* i_rows *) intros r Hr. apply in_visible. exact Hr.
Qed.

(* (a) no schedule, crash point or fault ever makes a reachable row unreachable *)
Theorem never_unqueryable :
  forall (sched : list label) (s0 : state), wf0 s0 ->
  forall r, In r (visible s0) -> In r (visible (run sched s0)).
Proof.
  intros sched s0 Hwf r Hr. apply in_visible.
  exact (i_rows (run_inv _ sched s0 (wf0_inv s0 Hwf)) r Hr).
Qed.

(* the fold behind max_level, from any start value: it only grows, and it ends
   at the start value or at the level of some source *)
Lemma max_level_fold (lv : path -> option N) g : forall a,
  let m := fold_left (fun acc p => match lv p with Some l => N.max acc l | None => acc end) g a in
  a <= m /\ (m = a \/ exists p, In p g /\ lv p = Some m).
Proof.
  induction g as [|x r IH]; intros a; simpl; [split; [apply N.le_refl|left; reflexivity]|].
  destruct (lv x) as [l|] eqn:E.
  - destruct (IH (N.max a l)) as [H1 [H2|[p [Hp Hl]]]]; (split; [lia|]).
    + rewrite H2. destruct (N.max_spec a l) as [[_ ->]|[_ ->]]; [right; exists x; auto|left; reflexivity].
    + right. exists p. auto.
  - destruct (IH a) as [H1 [H2|[p [Hp Hl]]]]; (split; [exact H1|]); [left; exact H2|right; exists p; auto].
Qed.

Lemma max_level_upper (lv : path -> option N) g p l : In p g -> lv p = Some l -> l <= max_level lv g.
Proof.
  unfold max_level. generalize 0. induction g as [|x r IH]; intros a Hin Hl; simpl; [destruct Hin|].
  destruct Hin as [->|Hin]; [|apply IH; assumption].
  rewrite Hl. pose proof (proj1 (max_level_fold lv r (N.max a l))). lia.
Qed.

Lemma max_level_attained (lv : path -> option N) g :
  max_level lv g = 0 \/ exists p, In p g /\ lv p = Some (max_level lv g).
Proof. exact (proj2 (max_level_fold lv g 0)). Qed.

(* whenever complete_compaction takes effect (error returned afterwards or
   not), the target ends up one level above the highest-level source that was
   in the catalog, the sources are gone and no other chunk changes level *)
Theorem level_rule :
  forall (s : state) (c : cid) (f : fault) l g t c',
  p_pc (get_proc s c) = PSwap l g t -> f <> FBefore ->
  cat_complete (s_cat s) g t = Some c' ->
  let s' := fst (step s (LStep c f)) in
  level_of s' t = Some (max_level (level_of s) g + 1) /\
  (forall p, In p g -> level_of s' p = None) /\
  (forall p, p <> t -> ~ In p g -> level_of s' p = level_of s p).
Proof.
  intros s c f l g t c' E Hf Hcc s'.
  (* whatever the node does next, the catalog is c' *)
  assert (Hs : s_cat s' = c').
  { unfold s'. simpl. unfold step_proc. rewrite E. destruct f; [|contradiction|]; rewrite Hcc; reflexivity. }
  destruct (cat_complete_some _ _ _ _ Hcc) as [_ [Htg [_ [Hlt Hoth]]]].
  unfold level_of. rewrite Hs. split; [exact Hlt|split].
  - intros p Hp. rewrite Hoth by (intros ->; contradiction).
    apply memN_In in Hp. rewrite Hp. reflexivity.
  - intros p Hpt Hpg. rewrite Hoth by exact Hpt. apply memN_false in Hpg. rewrite Hpg. reflexivity.
Qed.

(* register_chunk enters the target at level 0, whatever the level of the sources *)
Lemma registered_at_level_zero s c f l g t rows :
  p_pc (get_proc s c) = PReg l g t rows -> f <> FBefore ->
  level_of (fst (step s (LStep c f))) t = Some 0.
Proof.
  intros E Hf. simpl. unfold step_proc. rewrite E.
  destruct f; [|contradiction|]; unfold level_of; simpl; apply (aget_aset_same N.eqb Neqb_spec).
Qed.

Definition rowsof (s : state) (p : path) : list row :=
  match content_of s p with Some rs => rs | None => [] end.

(* what a node has read / written so far is exactly the rows of its sources *)
Definition pc_exact (s : state) (k : pc) : Prop :=
  match k with
  | PRead _ g todo acc => exists done, g = done ++ todo /\ acc = flat_map (rowsof s) done
  | PPut _ g rows => Permutation rows (flat_map (rowsof s) g)
  | PReg _ g _ rows => Permutation rows (flat_map (rowsof s) g)
  | PSwap _ g t => Permutation (rowsof s t) (flat_map (rowsof s) g)
  | _ => True
  end.

(* what a node holds in the catalog: the group it may still swap out and the
   registered target it has still to swap in *)
Definition holds (k : pc) : list path := claims k ++ unswapped k.

(* the invariant behind exact_when_quiescent, kept outside the known classes;
   V0 is the initial multiset of reachable rows *)
Record invb (V0 : list row) (s : state) : Prop := mkInvb {
  b_nodup : NoDup (cat_keys s);
  b_claims : forall c, NoDup (claims (pcof s c));
  b_holds : forall c, incl (holds (pcof s c)) (cat_keys s);
  b_disj : forall c c' x, c <> c' -> In x (holds (pcof s c)) -> ~ In x (holds (pcof s c'));
  b_exact : forall c, pc_exact s (pcof s c);
  (* the catalog holds the initial rows plus the rows of the registered targets
     whose swap is outstanding *)
  b_vis : exists U, NoDup U /\ (forall t, In t U <-> exists c, In t (unswapped (pcof s c))) /\
                    Permutation (flat_map (rowsof s) (cat_keys s)) (V0 ++ flat_map (rowsof s) U)
}.
Arguments b_nodup {V0 s} _.
Arguments b_claims {V0 s} _.
Arguments b_holds {V0 s} _.
Arguments b_disj {V0 s} _.
Arguments b_exact {V0 s} _.
Arguments b_vis {V0 s} _.

Lemma visible_rowsof R0 s : inv R0 s -> visible s = flat_map (rowsof s) (cat_keys s).
Proof.
  intros I. unfold visible, cat_keys, akeys. rewrite !flat_map_concat_map, map_map. f_equal.
  apply map_ext_in. intros [p lv] Hp. unfold rows_at, rowsof, content_of. simpl.
  assert (Hd : memN p (s_deleted s) = false).
  { apply memN_false. intros Hd. apply (i_del I p Hd). exact (in_map fst _ _ Hp). }
  rewrite Hd. reflexivity.
Qed.

Lemma perm_split (keys keys' g : list N) :
  NoDup keys -> NoDup keys' -> NoDup g -> incl g keys ->
  (forall p, In p keys' <-> In p keys /\ ~ In p g) ->
  Permutation keys (keys' ++ g).
Proof.
  intros Hk Hk' Hg Hi H. apply NoDup_Permutation; [exact Hk| |].
  - apply nodup_app_iff. split; [exact Hk'|split; [exact Hg|]]. intros x Hx. apply H in Hx. tauto.
  - intros x. rewrite in_app_iff, H. specialize (Hi x). destruct (in_dec N.eq_dec x g); tauto.
Qed.

Lemma rowsof_put_old s rows p : p <> s_next s -> rowsof (put_object s rows) p = rowsof s p.
Proof. intros H. unfold rowsof. rewrite content_put_old by exact H. reflexivity. Qed.

Lemma rows_at_rowsof s q : present s q = true -> rows_at s q = rowsof s q.
Proof.
  intros H. destruct (rows_at_present _ _ H) as [rs [H1 H2]]. unfold rowsof. rewrite H1. exact H2.
Qed.

Lemma pc_exact_transfer s s' k :
  (forall p, In p (group_of k) -> rowsof s' p = rowsof s p) ->
  (forall t, target_of k = Some t -> rowsof s' t = rowsof s t) ->
  pc_exact s k -> pc_exact s' k.
Proof.
  intros Hg Ht. unfold pc_exact. destruct k; simpl in *; auto.
  - (* PRead *) intros [done [H1 H2]]. exists done. split; [exact H1|]. rewrite H2.
    symmetry. apply flat_map_ext_in. intros p Hp. apply Hg. rewrite H1. apply in_or_app. left; exact Hp.
  - (* PPut *) intros H. rewrite (flat_map_ext_in (rowsof s') (rowsof s)); auto.
  - (* PReg *) intros H. rewrite (flat_map_ext_in (rowsof s') (rowsof s)); auto.
  - (* PSwap *) intros H. rewrite (Ht t eq_refl). rewrite (flat_map_ext_in (rowsof s') (rowsof s)); auto.
Qed.

Lemma claims_group k : incl (claims k) (group_of k).
Proof. destruct k; simpl; try apply incl_refl; intros x []. Qed.

Lemma unswapped_target k t : In t (unswapped k) -> target_of k = Some t.
Proof. destruct k; simpl; intros H; try contradiction. destruct H as [->|[]]. reflexivity. Qed.

Lemma unswapped_nodup k : NoDup (unswapped k).
Proof. destruct k; simpl; repeat constructor; intros []. Qed.

(* Nodes stay; store and catalog may change.  What the nodes hold stays
   catalogued, and the rows of their groups and targets stay; V1 accounts for
   the rows that come into the catalog or go. *)
Lemma invb_shared V0 V1 s s' :
  invb V0 s -> s_procs s' = s_procs s ->
  NoDup (cat_keys s') ->
  (forall c, incl (holds (pcof s c)) (cat_keys s')) ->
  (forall c p, In p (group_of (pcof s c)) -> rowsof s' p = rowsof s p) ->
  (forall c t, target_of (pcof s c) = Some t -> rowsof s' t = rowsof s t) ->
  Permutation (V0 ++ flat_map (rowsof s') (cat_keys s')) (V1 ++ flat_map (rowsof s) (cat_keys s)) ->
  invb V1 s'.
Proof.
  intros B H5 Hnd Hh Hrg Hrt HV.
  assert (Hp : forall c, pcof s' c = pcof s c) by (intros c; unfold pcof, get_proc; rewrite H5; reflexivity).
  constructor.
  - (* b_nodup *) exact Hnd.
  - (* b_claims *) intros c. rewrite Hp. apply (b_claims B).
  - (* b_holds *) intros c. rewrite Hp. apply Hh.
  - (* b_disj *) intros c c'. rewrite !Hp. apply (b_disj B).
  - (* b_exact *) intros c. rewrite Hp. apply pc_exact_transfer with (s := s); [apply Hrg|apply Hrt|apply (b_exact B)].
  - (* b_vis *) destruct (b_vis B) as [U [U1 [U2 U3]]]. exists U. split; [exact U1|split].
    + intros t. rewrite U2. setoid_rewrite Hp. reflexivity.
    + rewrite (flat_map_ext_in (rowsof s') (rowsof s) U).
      * apply Permutation_app_inv_l with (l := V0). rewrite HV, U3, !app_assoc.
        apply Permutation_app_tail, Permutation_app_comm.
      * intros t Ht. apply U2 in Ht. destruct Ht as [c Hc]. apply (Hrt c). apply unswapped_target. exact Hc.
Qed.

(* Node c goes on as p'; store, catalog and the other nodes stay.  What c holds
   now is catalogued and held by nobody else; V1 accounts for the targets c
   starts or stops waiting for. *)
Lemma invb_node V0 V1 s c p' :
  invb V0 s ->
  NoDup (claims (p_pc p')) -> incl (holds (p_pc p')) (cat_keys s) ->
  (forall x c2, c2 <> c -> In x (holds (p_pc p')) -> ~ In x (holds (pcof s c2))) ->
  pc_exact s (p_pc p') ->
  Permutation (V0 ++ flat_map (rowsof s) (unswapped (pcof s c)))
              (V1 ++ flat_map (rowsof s) (unswapped (p_pc p'))) ->
  invb V1 (set_proc s c p').
Proof.
  intros B Hcn Hhi Hap Hex HV.
  constructor.
  - (* b_nodup *) exact (b_nodup B).
  - (* b_claims *) intros c1. rewrite pcof_set_proc. destruct (N.eqb c1 c); [exact Hcn|apply (b_claims B)].
  - (* b_holds *) intros c1. rewrite pcof_set_proc. destruct (N.eqb c1 c); [exact Hhi|apply (b_holds B)].
  - (* b_disj *) intros c1 c2 x Hn. rewrite !pcof_set_proc.
    destruct (N.eqb_spec c1 c) as [->|H1]; destruct (N.eqb_spec c2 c) as [->|H2].
    + contradiction.
    + apply Hap. exact H2.
    + intros Hx Hx'. exact (Hap x c1 H1 Hx' Hx).
    + apply (b_disj B c1 c2 x Hn).
  - (* b_exact *) intros c1. apply pc_exact_transfer with (s := s); [reflexivity|reflexivity|].
    rewrite pcof_set_proc. destruct (N.eqb c1 c); [exact Hex|apply (b_exact B)].
  - (* b_vis: of the targets U that were outstanding, those of the other nodes stay *)
    destruct (b_vis B) as [U [U1 [U2 U3]]].
    set (uo := unswapped (pcof s c)) in *. set (un := unswapped (p_pc p')) in *.
    set (rest := filter (fun t => negb (memN t uo)) U).
    assert (Hrest : forall t, In t rest <-> In t U /\ ~ In t uo).
    { intros t. unfold rest. rewrite filter_In, negb_true_iff, memN_false. reflexivity. }
    assert (Hnr : NoDup rest) by (apply NoDup_filter; exact U1).
    assert (HU : Permutation U (rest ++ uo)).
    { apply perm_split; [exact U1|exact Hnr|apply unswapped_nodup| |exact Hrest].
      intros t Ht. apply U2. exists c. exact Ht. }
    exists (un ++ rest). split; [|split].
    + apply nodup_app_iff. split; [apply unswapped_nodup|split; [exact Hnr|]].
      intros x Hx Hr. apply Hrest in Hr. destruct Hr as [HxU Hxo]. apply U2 in HxU. destruct HxU as [c2 H2].
      destruct (N.eq_dec c2 c) as [->|Hne]; [exact (Hxo H2)|].
      apply (Hap x c2 Hne); apply in_or_app; right; assumption.
    + intros t. rewrite in_app_iff, Hrest, U2. setoid_rewrite pcof_set_proc. split.
      * intros [H|[[c2 H2] Hn]]; [exists c; rewrite N.eqb_refl; exact H|].
        exists c2. destruct (N.eqb_spec c2 c) as [->|_]; [destruct (Hn H2)|exact H2].
      * intros [c1 H]. destruct (N.eqb_spec c1 c) as [_|H1]; [left; exact H|].
        right. split; [eauto|].
        intros Ht. apply (b_disj B c c1 t (not_eq_sym H1)); apply in_or_app; right; assumption.
    + change (Permutation (flat_map (rowsof s) (cat_keys s)) (V1 ++ flat_map (rowsof s) (un ++ rest))).
      rewrite flat_map_app, app_assoc, <- HV, U3, (Permutation_flat_map (rowsof s) HU), flat_map_app, <- app_assoc.
      apply Permutation_app_head, Permutation_app_comm.
Qed.

Lemma invb_shrink {V0 s c k p'} :
  invb V0 s -> p_pc (get_proc s c) = k ->
  unswapped (p_pc p') = unswapped k ->
  (claims (p_pc p') = claims k \/ claims (p_pc p') = []) ->
  pc_exact s (p_pc p') ->
  invb V0 (set_proc s c p').
Proof.
  intros B <- Hu Hc Hex. fold (pcof s c) in Hu, Hc.
  assert (Hsub : incl (holds (p_pc p')) (holds (pcof s c))).
  { unfold holds. rewrite Hu. destruct Hc as [-> | ->]; [apply incl_refl|apply incl_appr, incl_refl]. }
  apply invb_node with (V0 := V0); auto.
  - destruct Hc as [-> | ->]; [apply (b_claims B)|constructor].
  - eapply incl_tran; [exact Hsub|apply (b_holds B)].
  - intros x c2 Hne Hx. apply (b_disj B c c2 x (not_eq_sym Hne)). apply Hsub. exact Hx.
  - rewrite Hu. apply Permutation_refl.
Qed.

(* the store may change at paths that are neither catalogued nor in a group nor a target *)
Lemma invb_grow V0 s s' :
  s_cat s' = s_cat s -> s_procs s' = s_procs s ->
  (forall p, In p (cat_keys s) -> rowsof s' p = rowsof s p) ->
  (forall c p, In p (group_of (pcof s c)) -> rowsof s' p = rowsof s p) ->
  (forall c t, target_of (pcof s c) = Some t -> rowsof s' t = rowsof s t) ->
  invb V0 s -> invb V0 s'.
Proof.
  intros H1 H5 Hrk Hrg Hrt B.
  assert (Hk : cat_keys s' = cat_keys s) by (unfold cat_keys; rewrite H1; reflexivity).
  apply invb_shared with (V0 := V0) (s := s); auto; rewrite Hk.
  - exact (b_nodup B).
  - intros c. apply (b_holds B).
  - rewrite (flat_map_ext_in _ _ _ Hrk). apply Permutation_refl.
Qed.

Lemma invb_ext V0 s s' :
  s_cat s' = s_cat s -> s_content s' = s_content s -> s_procs s' = s_procs s -> invb V0 s -> invb V0 s'.
Proof.
  intros H1 H2 H5.
  assert (Hr : forall p, rowsof s' p = rowsof s p) by (intros p; unfold rowsof, content_of; rewrite H2; reflexivity).
  apply invb_grow; auto.
Qed.

Lemma invb_set_leases V0 s ls : invb V0 s -> invb V0 (set_leases s ls).
Proof. apply invb_ext; reflexivity. Qed.

Lemma invb_put V0 R0 s rows : inv R0 s -> invb V0 s -> invb V0 (put_object s rows).
Proof.
  intros I. apply invb_grow; auto; intros; apply rowsof_put_old.
  - assert (p < s_next s) by (apply (i_fresh_seen I); left; assumption). lia.
  - assert (p < s_next s) by (eapply (group_lt I); eassumption). lia.
  - assert (t < s_next s) by (eapply (i_fresh_target I); eassumption). lia.
Qed.

(* register_chunk(target): the target joins the catalog, then the unswapped set *)
Lemma invb_register V0 R0 s c l g t rows p' :
  inv R0 s -> invb V0 s ->
  pcof s c = PReg l g t rows -> p_pc p' = PSwap l g t ->
  invb V0 (set_proc (set_cat s (cat_register (s_cat s) t)) c p').
Proof.
  intros I B E E'. set (s1 := set_cat s (cat_register (s_cat s) t)).
  pose proof (i_pc I c) as Hok. rewrite E in Hok. destruct Hok as [_ [Hct Hns]].
  assert (Hnk : ~ In t (cat_keys s)) by (intros H; apply Hns; left; exact H).
  assert (Hk : cat_keys s1 = cat_keys s ++ [t]) by (apply (keys_aset_absent N.eqb Neqb_spec); exact Hnk).
  assert (B1 : invb (V0 ++ rowsof s t) s1).
  { apply invb_shared with (V0 := V0) (s := s); [exact B|reflexivity| | |reflexivity|reflexivity|].
    - apply (nodup_aset N.eqb Neqb_spec). exact (b_nodup B).
    - intros c2. rewrite Hk. apply incl_appl. apply (b_holds B).
    - rewrite Hk, flat_map_app. simpl. rewrite app_nil_r, <- app_assoc.
      apply Permutation_app_head, Permutation_app_comm. }
  pose proof (b_claims B c) as Hgn. pose proof (b_holds B c) as Hgi. pose proof (b_exact B c) as Hex.
  rewrite E in Hgn, Hgi, Hex. unfold holds in Hgi. simpl in Hgi. rewrite app_nil_r in Hgi.
  apply invb_node with (V0 := V0 ++ rowsof s t); unfold holds; rewrite ?E'; simpl.
  - exact B1.
  - exact Hgn.
  - rewrite Hk. apply incl_app; [apply incl_appl; exact Hgi|apply incl_appr, incl_refl].
  - (* nobody else holds the group, and the target was not catalogued *)
    intros x c2 Hne Hx Hx'. apply in_app_or in Hx. destruct Hx as [Hx|[<-|[]]].
    + apply (b_disj B c c2 x (not_eq_sym Hne)); [rewrite E; apply in_or_app; left; exact Hx|exact Hx'].
    + exact (Hnk (b_holds B c2 t Hx')).
  - unfold rowsof at 1. change (content_of s1 t) with (content_of s t). rewrite Hct. exact Hex.
  - change (pcof s1 c) with (pcof s c). rewrite E. simpl. rewrite !app_nil_r. apply Permutation_refl.
Qed.

(* complete_compaction: the target stops being unswapped, then the sources
   leave the catalog *)
Lemma invb_swap V0 s c l g t c' p' :
  invb V0 s ->
  pcof s c = PSwap l g t -> cat_complete (s_cat s) g t = Some c' ->
  claims (p_pc p') = [] -> unswapped (p_pc p') = [] -> pc_exact s (p_pc p') ->
  invb V0 (set_proc (set_cat s c') c p').
Proof.
  intros B E Hcc Hc0 Hu0 Hex0.
  destruct (cat_complete_some _ _ _ _ Hcc) as [_ [_ [Hk _]]].
  pose proof (b_claims B c) as Hgn. pose proof (b_holds B c) as Hgi. pose proof (b_exact B c) as Hex.
  rewrite E in Hgn, Hgi, Hex. apply incl_app_inv in Hgi. destruct Hgi as [Hgi _]. simpl in Hgn, Hgi, Hex.
  assert (B1 : invb (V0 ++ rowsof s t) (set_proc s c p')).
  { apply invb_node with (V0 := V0); unfold holds; rewrite ?Hc0, ?Hu0, ?E; simpl; auto using incl_nil_l, NoDup_nil.
    rewrite !app_nil_r. apply Permutation_refl. }
  change (set_proc (set_cat s c') c p') with (set_cat (set_proc s c p') c').
  apply invb_shared with (V0 := V0 ++ rowsof s t) (s := set_proc s c p'); [exact B1|reflexivity| | |reflexivity|reflexivity|].
  - exact (nodup_cat_complete _ _ _ _ Hcc (b_nodup B)).
  - (* what the other nodes hold is apart from the group *)
    intros c2 x Hx. apply Hk. rewrite pcof_set_proc in Hx. destruct (N.eqb_spec c2 c) as [->|Hne].
    + unfold holds in Hx. rewrite Hc0, Hu0 in Hx. destruct Hx.
    + split; [exact (b_holds B c2 x Hx)|]. intros Hg.
      apply (b_disj B c2 c x Hne Hx). rewrite E. apply in_or_app. left; exact Hg.
  - change (Permutation ((V0 ++ rowsof s t) ++ flat_map (rowsof s) (akeys c'))
                        (V0 ++ flat_map (rowsof s) (cat_keys s))).
    rewrite (Permutation_flat_map (rowsof s) (perm_split (cat_keys s) (akeys c') g (b_nodup B)
               (nodup_cat_complete _ _ _ _ Hcc (b_nodup B)) Hgn Hgi Hk)), flat_map_app, Hex, <- app_assoc.
    apply Permutation_app_head, Permutation_app_comm.
Qed.

Lemma invb_after_reads V0 s c l g todo acc0 acc :
  invb V0 s -> pcof s c = PRead l g todo acc0 -> acc = flat_map (rowsof s) g ->
  invb V0 (set_proc s c (with_pc (get_proc s c) (after_reads l g acc))).
Proof.
  intros B E H.
  assert (Hp : Permutation (isort acc) (flat_map (rowsof s) g)) by (rewrite <- H; apply isort_perm).
  unfold after_reads. destruct acc as [|a r]; apply (invb_shrink B E); simpl; auto.
Qed.

Lemma gone_invb s k : gone k -> claims k = [] /\ unswapped k = [] /\ pc_exact s k.
Proof. destruct k; intros []; repeat split. Qed.

Lemma invb_leave V0 R0 s s1 c p' :
  inv R0 s -> invb V0 s -> quiet s s1 -> gone (p_pc p') -> unswapped (p_pc (get_proc s c)) = [] ->
  invb V0 (set_proc s1 c p').
Proof.
  intros I B Hq Hk Hu.
  assert (B1 : invb V0 s1).
  { destruct Hq; auto using invb_set_leases, (invb_put V0 R0). apply invb_ext with (s := s); auto. }
  assert (Eg : p_pc (get_proc s1 c) = p_pc (get_proc s c)) by (destruct Hq; reflexivity).
  destruct (gone_invb s1 _ Hk) as [Hc [Hu' Hex]].
  apply (invb_shrink B1 Eg); [rewrite Hu; exact Hu'|right; exact Hc|exact Hex].
Qed.

Lemma node_step_invb V0 R0 s c s' : inv R0 s -> invb V0 s -> node_step s c s' 0 -> invb V0 s'.
Proof.
  intros I B H. pose proof (b_exact B c) as Hex. unfold pcof in Hex. remember 0 as b eqn:Hb.
  destruct H as [|s1 p' b Hq [Hl _] Hu|l g ls E|l g E|l g acc E|l g q rest acc E Ep|l g rows E
                 |l g t rows k' b E Hk|l g t cat' p' E Hcc Hsn Hpe Hk|l g E];
    try (rewrite E in Hex; simpl in Hex).
  - (* ns_none *) exact B.
  - (* ns_leave *) eapply invb_leave; eauto.
  - (* ns_end *) apply (invb_shrink (invb_set_leases V0 s ls B) E); simpl; auto.
  - (* ns_job *) apply (invb_shrink B E); simpl; auto. exists []. split; reflexivity.
  - (* ns_reads_done *) eapply invb_after_reads; eauto. destruct Hex as [done [-> ->]]. rewrite app_nil_r. reflexivity.
  - (* ns_read: one more source is done *)
    destruct Hex as [done [Hg Hacc]]. rewrite (rows_at_rowsof _ _ Ep).
    assert (Hacc' : acc ++ rowsof s q = flat_map (rowsof s) (done ++ [q])).
    { rewrite flat_map_app. simpl. rewrite app_nil_r, Hacc. reflexivity. }
    destruct rest as [|q2 rest2].
    + eapply invb_after_reads; eauto. rewrite Hg. exact Hacc'.
    + apply (invb_shrink B E); simpl; auto.
      exists (done ++ [q]). split; [|exact Hacc']. rewrite Hg, <- app_assoc. reflexivity.
  - (* ns_put: the new object is at a fresh path, the rows of the sources are what they were *)
    pose proof (invb_put V0 R0 s rows I B) as B1. pose proof (b_exact B1 c) as Hex1.
    change (pcof (put_object s rows) c) with (p_pc (get_proc s c)) in Hex1. rewrite E in Hex1.
    apply (invb_shrink B1 E); simpl; auto.
  - (* ns_register: b = 0, so no error came back *)
    destruct Hk as [[-> _]|[_ ->]]; [|discriminate]. eapply invb_register; eauto.
  - (* ns_swap *) eapply invb_swap; eauto; destruct Hk as [-> | ->]; simpl; auto.
  - (* ns_job_done *) apply (invb_shrink B E); simpl; auto.
Qed.

Lemma others_spec s c c' : c' <> c -> In (get_proc s c') (others s c) \/ get_proc s c' = proc0.
Proof.
  intros Hne. unfold get_proc, others. destruct (aget N.eqb c' (s_procs s)) as [p|] eqn:E; [left|right; reflexivity].
  apply (aget_In N.eqb Neqb_spec) in E. apply in_map_iff. exists (c', p). split; [reflexivity|].
  apply filter_In. split; [exact E|]. simpl. rewrite negb_true_iff. apply N.eqb_neq. exact Hne.
Qed.

(* a lease acquired outside the known classes: the group is catalogued and
   apart from what the other nodes hold *)
Lemma start_outside_known s c g :
  acquires s c g FOk = true -> bad_step s (LStart c g FOk) = 0 ->
  incl g (cat_keys s) /\
  forall x, In x g -> forall c', c' <> c -> ~ In x (holds (pcof s c')).
Proof.
  unfold bad_step. intros -> Hbad.
  destruct (inclb g (akeys (s_cat s))) eqn:Ei; simpl in Hbad; [|discriminate].
  destruct (existsb (fun p => negb (disjointb g (claims (p_pc p)))) (others s c)) eqn:E3; [discriminate|].
  destruct (existsb (fun p => negb (disjointb g (unswapped (p_pc p)))) (others s c)) eqn:E5; [discriminate|].
  split; [apply inclb_incl; exact Ei|]. intros x Hx c' Hne. unfold pcof.
  destruct (others_spec s c c' Hne) as [Ho|Ho]; [|rewrite Ho; simpl; tauto].
  pose proof (existsb_false _ _ E3 _ Ho) as H3. pose proof (existsb_false _ _ E5 _ Ho) as H5.
  simpl in H3, H5. rewrite negb_false_iff in H3, H5. intros Hh. apply in_app_or in Hh.
  destruct Hh as [Hh|Hh]; [exact (disjointb_spec _ _ H3 x Hx Hh)|exact (disjointb_spec _ _ H5 x Hx Hh)].
Qed.

Lemma step_start_invb V0 R0 s c g f :
  inv R0 s -> invb V0 s -> bad_step s (LStart c g f) = 0 -> invb V0 (fst (step_start s c g f)).
Proof.
  intros I B Hbad. unfold step_start.
  destruct (start_ok s c g) eqn:Eok; simpl; [|exact B].
  destruct f; simpl; try exact B;
    (destruct (lease_conflict (s_clock s) (drop_expired (s_clock s) (s_leases s)) g) eqn:Econf; simpl;
     [destruct (s_local s); [apply invb_set_leases|]; exact B|]).
  - (* FOk *) destruct (start_outside_known s c g) as [Hin Hdis]; [unfold acquires; rewrite Eok, Econf; reflexivity|exact Hbad|].
    unfold start_ok in Eok. destruct (p_pc (get_proc s c)) eqn:E; try discriminate.
    rewrite !andb_true_iff in Eok. destruct Eok as [[Hnd _] _].
    set (s1 := bump_lease_id _).
    assert (B1 : invb V0 s1) by (apply invb_ext with (s := s); auto).
    apply invb_node with (V0 := V0); unfold holds; simpl; rewrite ?app_nil_r.
    + exact B1.
    + (* the group has no duplicates *) apply nodupb_NoDup. exact Hnd.
    + (* catalogued *) exact Hin.
    + (* held by nobody else *) intros x c2 Hne Hx. exact (Hdis x Hx c2 Hne).
    + (* pc_exact of PJob *) exact Logic.I.
    + (* no target before or after *)
      change (pcof s1 c) with (p_pc (get_proc s c)). rewrite E. simpl. rewrite app_nil_r. apply Permutation_refl.
  - (* FAfter *) apply invb_ext with (s := s); auto.
Qed.

Lemma step_invb V0 R0 s lb :
  inv R0 s -> invb V0 s -> bad_step s lb = 0 -> invb V0 (fst (step s lb)).
Proof.
  intros I B Hbad. destruct lb; simpl.
  - (* LList *) apply (invb_shrink B eq_refl); simpl; auto. apply (b_exact B c).
  - (* LStart *) eapply step_start_invb; eauto.
  - (* LStep *) pose proof (step_proc_node_step s c f) as H. rewrite Hbad in H. exact (node_step_invb V0 R0 s c _ I B H).
  - (* LRenew *) destruct (memN l (p_renew (get_proc s c))); simpl; [|exact B].
    destruct (lease_renew (s_clock s) (renew_ttl s) l (s_leases s)); simpl; [apply invb_set_leases; exact B|].
    apply (invb_shrink B eq_refl); simpl; auto. apply (b_exact B c).
  - (* LDel *) destruct (memN p (p_pending (get_proc s c))); simpl; [|exact B].
    set (s1 := set_proc s c _).
    assert (B1 : invb V0 s1) by (apply (invb_shrink B eq_refl); simpl; auto; apply (b_exact B c)).
    destruct f; simpl; try exact B1; eapply invb_ext; try exact B1; reflexivity.
  - (* LScav *) apply invb_set_leases. exact B.
  - (* LCrash: the node was not between register and swap *)
    simpl in Hbad. apply (invb_shrink B eq_refl); simpl; auto.
    destruct (p_pc (get_proc s c)); try reflexivity. discriminate.
  - (* LTick *) apply invb_ext with (s := s); auto.
Qed.

Lemma run_both R0 V0 sched : forall s,
  inv R0 s -> invb V0 s -> known_class s sched = 0 ->
  inv R0 (run sched s) /\ invb V0 (run sched s).
Proof.
  unfold run. induction sched as [|lb r IH]; intros s I B Hk; simpl; [split; assumption|].
  simpl in Hk. destruct (bad_step s lb) eqn:Eb; [|discriminate].
  apply IH; [apply step_inv; exact I|eapply step_invb; eauto|exact Hk].
Qed.

Lemma quiescent_idle s : quiescent s = true -> forall c, pcof s c = Idle.
Proof.
  unfold quiescent. rewrite forallb_forall. intros H c. unfold pcof, get_proc.
  destruct (aget N.eqb c (s_procs s)) as [p|] eqn:E; [|reflexivity].
  apply (aget_In N.eqb Neqb_spec) in E. specialize (H _ E). simpl in H.
  destruct (p_pc p); try discriminate. reflexivity.
Qed.

Lemma wf0_invb s : wf0 s -> NoDup (cat_keys s) -> invb (visible s) s.
Proof.
  intros Hwf Hnd. pose proof (wf0_inv s Hwf) as I. destruct Hwf as [Hp _].
  assert (Hg : forall c, pcof s c = Idle) by (intros c; unfold pcof; rewrite get_proc_nil by exact Hp; reflexivity).
  constructor.
  - (* b_nodup *) exact Hnd.
  - (* b_claims *) intros c. rewrite Hg. constructor.
  - (* b_holds *) intros c. rewrite Hg. apply incl_nil_l.
  - (* b_disj *) intros c c' x _. rewrite !Hg. intros [].
  - (* b_exact *) intros c. rewrite Hg. exact Logic.I.
  - (* b_vis *) exists []. split; [constructor|split].
    + intros t. split; [intros []|]. intros [c Hc]. rewrite Hg in Hc. destruct Hc.
    + simpl. rewrite app_nil_r. rewrite (visible_rowsof _ _ I). apply Permutation_refl.
Qed.

(* while compactions are in progress (outside the known classes) the only
   surplus is the content of the registered targets whose swap is outstanding:
   every initial row is there at least once, and at most once more per such target *)
Theorem surplus_is_unswapped_targets :
  forall (sched : list label) (s0 : state),
  wf0 s0 -> NoDup (cat_keys s0) -> known_class s0 sched = 0 ->
  let s := run sched s0 in
  exists U, NoDup U /\ (forall t, In t U <-> exists c, In t (unswapped (pcof s c))) /\
            Permutation (visible s) (visible s0 ++ flat_map (rowsof s) U).
Proof.
  intros sched s0 Hwf Hnd Hk s.
  destruct (run_both (visible s0) (visible s0) sched s0 (wf0_inv s0 Hwf) (wf0_invb s0 Hwf Hnd) Hk) as [I B].
  destruct (b_vis B) as [U [H1 [H2 H3]]]. exists U. split; [exact H1|split; [exact H2|]].
  unfold s. rewrite (visible_rowsof _ _ I). exact H3.
Qed.

(* (b) = C03_modulo_known: outside the known classes, whenever no compaction
   is in progress the rows reachable through the catalog are exactly the
   initial multiset (each row as often as it was there) *)
Theorem exact_when_quiescent :
  forall (sched : list label) (s0 : state),
  wf0 s0 -> NoDup (cat_keys s0) ->
  known_class s0 sched = 0 ->
  quiescent (run sched s0) = true ->
  Permutation (visible (run sched s0)) (visible s0).
Proof.
  intros sched s0 Hwf Hnd Hk Hq.
  destruct (surplus_is_unswapped_targets sched s0 Hwf Hnd Hk) as [U [_ [HU HP]]].
  (* nobody is waiting for a swap *)
  destruct U as [|t r]; [rewrite app_nil_r in HP; exact HP|].
  destruct (proj1 (HU t) (or_introl eq_refl)) as [c Hc].
  rewrite (quiescent_idle _ Hq c) in Hc. destruct Hc.
Qed.

Lemma next_free_acc keys : forall a, a <= fold_left (fun a p => N.max a (p + 1)) keys a.
Proof.
  induction keys as [|x r IH]; intros a; simpl; [apply N.le_refl|].
  eapply N.le_trans; [apply N.le_max_l|apply IH].
Qed.

Lemma next_free_gt keys p : In p keys -> p < next_free keys.
Proof.
  unfold next_free. generalize 0. induction keys as [|x r IH]; intros a Hin; simpl; [destruct Hin|].
  destruct Hin as [->|Hin]; [|apply IH; exact Hin].
  eapply N.lt_le_trans; [|apply next_free_acc].
  eapply N.lt_le_trans; [|apply N.le_max_r]. apply N.lt_add_pos_r. reflexivity.
Qed.

Lemma wf0_init local chunks : wf0 (init local chunks).
Proof.
  unfold wf0, init, cat_keys, akeys; simpl. rewrite !map_map; simpl.
  (* no nodes; catalogued and stored paths are those of chunks; nothing deleted *)
  split; [reflexivity|split; [apply next_free_gt|split; [apply next_free_gt|intros p []]]].
Qed.

Lemma cat_keys_init local chunks : cat_keys (init local chunks) = map (fun e => fst (fst e)) chunks.
Proof. unfold cat_keys, akeys, init; simpl. rewrite map_map. reflexivity. Qed.

(* known classes: witnesses (each replayed on the real code by the harness corpus) *)
Definition two_l0 (local : bool) : state := init local [(1, 0, [1; 2]); (2, 0, [3; 4])].

Definition all_ok (c : cid) (n : nat) : list label := repeat (LStep c FOk) n.

(* K1a: register_chunk took effect but an error came back: Err arm, lease
   failed, target (level 0) and sources stay catalogued *)
Definition k1_register_fail_after : list label :=
  [LList 0; LStart 0 [1; 2] FOk] ++ all_ok 0 4 ++ [LStep 0 FAfter] ++ all_ok 0 2.
(* K1b: crash between register_chunk and complete_compaction *)
Definition k1_crash_before_swap : list label :=
  [LList 0; LStart 0 [1; 2] FOk] ++ all_ok 0 5 ++ [LCrash 0].
(* K1c: complete_compaction fails before taking effect: `?` leaves the cycle *)
Definition k1_swap_fail_before : list label :=
  [LList 0; LStart 0 [1; 2] FOk] ++ all_ok 0 5 ++ [LStep 0 FBefore].
(* ... and the next cycle merges target and sources into one chunk *)
Definition k1_then_remerge : list label :=
  k1_register_fail_after ++ [LList 0; LStart 0 [1; 2; 3] FOk] ++ all_ok 0 9.

(* K2: compactor 1 got its candidate list before compactor 0 compacted the
   group; the objects are still in the store (GC grace period) *)
Definition k2_stale_candidates : list label :=
  [LList 1; LList 0; LStart 0 [1; 2] FOk] ++ all_ok 0 8 ++ [LStart 1 [1; 2] FOk] ++ all_ok 1 8.

(* K3: compactor 0's lease expires after it has read its sources and before
   it writes the target; compactor 1 acquires the same chunks; both publish *)
Definition k3_lease_lost : list label :=
  [LList 0; LList 1; LStart 0 [1; 2] FOk] ++ all_ok 0 3 ++ [LTick 301; LStart 1 [1; 2] FOk] ++
  all_ok 1 8 ++ all_ok 0 5.

(* K5: a level-1 merge has registered its target (at level 0); an L0 pass of
   the other compactor compacts that target before the swap; the swap then
   fails with "target not found" and the sources stay *)
Definition l1_pair : state := init true [(1, 1, [1; 2]); (2, 1, [3])].
Definition k5_unswapped_target : list label :=
  [LList 0; LStart 0 [1; 2] FOk] ++ all_ok 0 5 ++ [LList 1; LStart 1 [3] FOk] ++ all_ok 1 7 ++ [LStep 0 FOk].

Definition refutes (s0 : state) (sched : list label) (k : N) : Prop :=
  wf0 s0 /\ NoDup (cat_keys s0) /\ known_class s0 sched = k /\
  quiescent (run sched s0) = true /\
  ~ Permutation (visible (run sched s0)) (visible s0).

Ltac refute :=
  unfold refutes; split; [apply wf0_init|split; [|split; [|split]]];
  [ apply nodupb_NoDup; vm_compute; reflexivity
  | vm_compute; reflexivity
  | vm_compute; reflexivity
  | let P := fresh in intros P; apply Permutation_length in P; vm_compute in P; discriminate ].

Lemma C03_refuted_register_swap_gap_error : refutes (two_l0 true) k1_register_fail_after 1.
Proof. refute. Qed.
Lemma C03_refuted_register_swap_gap_crash : refutes (two_l0 false) k1_crash_before_swap 1.
Proof. refute. Qed.
Lemma C03_refuted_register_swap_gap_swap_error : refutes (two_l0 false) k1_swap_fail_before 1.
Proof. refute. Qed.
Lemma C03_refuted_stale_candidates : refutes (two_l0 true) k2_stale_candidates 2.
Proof. refute. Qed.
Lemma C03_refuted_lease_lost : refutes (two_l0 false) k3_lease_lost 3.
Proof. refute. Qed.
Lemma C03_refuted_unswapped_target : refutes l1_pair k5_unswapped_target 5.
Proof. refute. Qed.

(* what the duplicates look like *)
Example k1_catalog_after_error :
  visible (run k1_register_fail_after (two_l0 true)) = [1; 2; 3; 4; 1; 2; 3; 4].
Proof. vm_compute. reflexivity. Qed.
Example k1_duplicates_baked_into_one_chunk :
  let s := run k1_then_remerge (two_l0 true) in
  map fst (s_cat s) = [4] /\ visible s = [1; 1; 2; 2; 3; 3; 4; 4].
Proof. vm_compute. split; reflexivity. Qed.
Example k5_swap_fails_target_not_found :
  snd (step (run (removelast k5_unswapped_target) l1_pair) (LStep 0 FOk)) = (7, 3, 1).
Proof. vm_compute. reflexivity. Qed.

(* non-vacuity of exact_when_quiescent: two interleaved compactors, one fault
   before effect, one fault after effect (the swap!), one crash — outside the
   known classes; two merges are published *)
Definition four_chunks : state :=
  init false [(1, 0, [1; 2]); (2, 0, [4; 3]); (3, 1, [5]); (4, 1, [6; 7])].
Definition clean_schedule : list label :=
  [LList 0; LList 1; LStart 0 [1; 2] FOk; LStart 1 [3; 4] FOk; LStep 0 FOk; LStep 1 FOk;
   LStep 1 FBefore (* GET fails: Err arm *); LStep 0 FOk; LStep 0 FOk; LStep 1 FOk; LStep 1 FOk;
   LStep 0 FOk; LStep 0 FOk; LStep 0 FAfter (* swap took effect, error returned *);
   LCrash 1; LTick 400; LList 1; LStart 1 [3; 4] FOk] ++ all_ok 1 8 ++ [LDel 1 3 FOk; LScav 1].
Example exact_when_quiescent_nonvacuous :
  wf0 four_chunks /\ NoDup (cat_keys four_chunks) /\
  known_class four_chunks clean_schedule = 0 /\
  quiescent (run clean_schedule four_chunks) = true /\
  visible (run clean_schedule four_chunks) = [1; 2; 3; 4; 5; 6; 7] /\
  level_of (run clean_schedule four_chunks) 5 = Some 1 /\
  level_of (run clean_schedule four_chunks) 6 = Some 2.
Proof.
  split; [apply wf0_init|split].
  - apply nodupb_NoDup. vm_compute. reflexivity.
  - vm_compute. repeat split; reflexivity.
Qed.

Definition lease_of_pc (k : pc) : option lid :=
  match k with
  | Idle => None
  | PJob l _ | PRead l _ _ _ | PPut l _ _ | PReg l _ _ _ | PSwap l _ _
  | PJobDone l _ | PLeaseDone l _ | PJobFail l | PLeaseFail l => Some l
  end.

(* status 1 is what a `?` returns: the node leaves through [early_return] *)
Lemma status1_early_return s c f k a :
  snd (step_proc s c f) = (k, a, 1) ->
  exists s1 p l, fst (step_proc s c f) = set_proc s1 c (early_return p l) /\
                 lease_of_pc (p_pc (get_proc s c)) = Some l /\
                 p_renew p = p_renew (get_proc s c) /\ p_active p = p_active (get_proc s c).
Proof.
  unfold step_proc.
  destruct (p_pc (get_proc s c)) as [|l g|l g [|q rest] acc|l g rows|l g u rows|l g t|l g|l g|l|l];
    destruct f; simpl; try destruct (present s q); try destruct (cat_complete (s_cat s) g t); simpl; intros H.
  (* the status is not 1, or the new state reads set_proc _ c (early_return _ l) *)
  all: try discriminate H.
  all: eexists _, _, _; repeat split; reflexivity.
Qed.

(* K4 (liveness; repaired by fix 00081bd): before the repair a `?` after
   acquire_lease left the renewal task running, so the abandoned lease was
   renewed for ever.  Now every request whose error leaves the cycle stops the
   renewal task and releases the concurrency slot; the lease expires after its
   TTL and the chunks can be compacted again. *)
Theorem error_path_stops_renewal :
  forall (s : state) (c : cid) (f : fault) (k a : N),
  snd (step s (LStep c f)) = (k, a, 1) ->
  let s' := fst (step s (LStep c f)) in
  p_pc (get_proc s' c) = Idle /\
  (forall l, lease_of_pc (p_pc (get_proc s c)) = Some l -> ~ In l (p_renew (get_proc s' c))) /\
  p_active (get_proc s' c) = p_active (get_proc s c) - 1.
Proof.
  intros s c f k a H. simpl.
  destruct (status1_early_return s c f k a H) as [s1 [p [l [-> [Hl [Hr Ha]]]]]].
  rewrite get_set_proc_same. simpl. rewrite Hr, Ha, Hl. repeat split.
  intros l' Hl'. inversion Hl'; subst l'. rewrite In_removeN. tauto.
Qed.

(* the abandoned lease of the witness is no longer renewed and, once its TTL
   has elapsed, another node acquires the chunks *)
Definition k4_job_error : list label := [LList 0; LStart 0 [1; 2] FOk; LStep 0 FBefore].

Example k4_lease_expires_after_error : forall local : bool,
  snd (step (run k4_job_error (two_l0 local)) (LRenew 0 1)) = no_out /\
  snd (step (run (k4_job_error ++ [LRenew 0 1; LTick 299; LList 1]) (two_l0 local)) (LStart 1 [1; 2] FOk)) = (2, 0, 2) /\
  snd (step (run (k4_job_error ++ [LRenew 0 1; LTick 300; LList 1]) (two_l0 local)) (LStart 1 [1; 2] FOk)) = (2, 2, 0).
Proof. intros local. destruct local; vm_compute; repeat split; reflexivity. Qed.

(* a lease whose renewal task keeps firing stays live (what the renewal is for) *)
Definition renew_round (c : cid) (l : lid) : list label :=
  [LTick Consts.C03_RENEWAL_PERIOD_SECS; LRenew c l].

Definition holds_lease (s : state) (c : cid) (l : lid) (chunks : list path) : Prop :=
  In l (p_renew (get_proc s c)) /\
  exists le, aget N.eqb l (s_leases s) = Some le /\ l_status le = 0 /\ l_chunks le = chunks.

Definition lease_is_live (s : state) (l : lid) (chunks : list path) : Prop :=
  exists le, aget N.eqb l (s_leases s) = Some le /\ l_chunks le = chunks /\ lease_live (s_clock s) le = true.

Lemma renew_ttl_pos s : (0 < renew_ttl s)%Z.
Proof. unfold renew_ttl. destruct (s_local s); vm_compute; reflexivity. Qed.

Lemma renewal_keeps_lease_live s c l ch :
  holds_lease s c l ch ->
  holds_lease (run (renew_round c l) s) c l ch /\ lease_is_live (run (renew_round c l) s) l ch.
Proof.
  intros [Hr [le [Hl [Hs Hc]]]]. unfold run, renew_round. simpl.
  change (get_proc (set_clock s (s_clock s + Z.max C03_RENEWAL_PERIOD_SECS 0)%Z) c) with (get_proc s c).
  apply memN_In in Hr. rewrite Hr. unfold lease_renew. simpl. rewrite Hl, Hs. simpl.
  set (now := (s_clock s + Z.max C03_RENEWAL_PERIOD_SECS 0)%Z).
  change (renew_ttl (set_clock s now)) with (renew_ttl s).
  split.
  - split; [apply memN_In; exact Hr|].
    eexists. split; [apply (aget_aset_same N.eqb Neqb_spec)|split; [reflexivity|exact Hc]].
  - eexists. split; [apply (aget_aset_same N.eqb Neqb_spec)|split; [exact Hc|]].
    unfold lease_live; simpl. apply Z.ltb_lt. pose proof (renew_ttl_pos s). lia.
Qed.

Lemma live_lease_conflict s l ch p g :
  lease_is_live s l ch -> In p ch -> In p g ->
  lease_conflict (s_clock s) (drop_expired (s_clock s) (s_leases s)) g = true.
Proof.
  intros [le [Hl [Hc Hlive]]] Hp Hg. unfold lease_conflict. apply existsb_exists. exists p. split; [exact Hg|].
  apply memN_In. unfold leased_chunks. apply in_flat_map. exists (l, le). split.
  - unfold drop_expired. apply filter_In. split; [apply (aget_In N.eqb Neqb_spec); exact Hl|].
    simpl. unfold lease_live in Hlive. apply andb_true_iff in Hlive. destruct Hlive as [_ H2].
    apply Z.ltb_lt in H2. rewrite negb_true_iff, andb_false_iff. right. apply Z.leb_gt. exact H2.
  - simpl. rewrite Hlive, Hc. exact Hp.
Qed.

(* the reduced catalog of this model is the level projection of the
   object-store catalog model of C07 / C02 (Model/Catalog.v) *)
Definition levels_of (c : cat) : lcatalog := map (fun e => (fst e, e_level (snd e))) (c_chunks c).

Lemma max_level_ext (f g : path -> option N) srcs : (forall p, f p = g p) -> max_level f srcs = max_level g srcs.
Proof.
  intros H. unfold max_level. generalize 0. induction srcs as [|x r IH]; intros a; simpl; [reflexivity|].
  rewrite H. apply IH.
Qed.

Lemma refine_register c p m : levels_of (s3_register c p m) = cat_register (levels_of c) p.
Proof. unfold levels_of, s3_register, cat_register; simpl. apply (aset_map_vals N.eqb Neqb_spec _ (fun _ => e_level) (fun _ _ => eq_refl)). Qed.

Lemma refine_remove srcs : forall c,
  levels_of (fold_left (fun c p => mkCat (adel N.eqb p (c_chunks c)) (ti_retain_all p (c_tindex c))) srcs c)
  = cat_remove_all (levels_of c) srcs.
Proof.
  unfold cat_remove_all. induction srcs as [|x r IH]; intros c; simpl; [reflexivity|].
  rewrite IH. unfold levels_of at 1; simpl. rewrite (adel_map_vals N.eqb _ (fun _ => e_level) (fun _ _ => eq_refl)). reflexivity.
Qed.

Theorem refine_complete c srcs tgt :
  option_map levels_of (s3_complete c srcs tgt) = cat_complete (levels_of c) srcs tgt.
Proof.
  unfold s3_complete, cat_complete.
  rewrite (max_level_ext (fun p => aget N.eqb p (levels_of c))
                         (fun p => option_map e_level (aget N.eqb p (c_chunks c)))) by (intros p; apply (aget_map_vals N.eqb Neqb_spec _ (fun _ => e_level) (fun _ _ => eq_refl))).
  rewrite <- refine_remove.
  match goal with |- context [fold_left ?f srcs c] => set (c1 := fold_left f srcs c) end.
  unfold amem. unfold levels_of at 2. rewrite (aget_map_vals N.eqb Neqb_spec _ (fun _ => e_level) (fun _ _ => eq_refl)).
  destruct (aget N.eqb tgt (c_chunks c1)) as [e|]; simpl; [|reflexivity].
  f_equal. unfold levels_of; simpl. rewrite (aset_map_vals N.eqb Neqb_spec _ (fun _ => e_level) (fun _ _ => eq_refl)). reflexivity.
Qed.
