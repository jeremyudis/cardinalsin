(* Proofs/SplitData.v — the data side of the splitter model, without the run
   monad.  The outputs expected of all source chunks (`all_outs`) have distinct
   keys and, selected by side, carry exactly the old rows on that side of the
   split point; so a catalog that holds exactly these outputs serves a
   permutation of the old rows (`rows_of_conserve`). *)
From Coq Require Import Permutation.
From CS Require Import Base.Prelude Base.AList Base.ListFacts Model.Split.
From CSGen Require Import Consts.
Open Scope Z_scope.

Lemma side_eqb_spec a b : side_eqb a b = true <-> a = b.
Proof. destruct a, b; simpl; split; congruence. Qed.

Lemma nkey_eqb_spec a b : nkey_eqb a b = true <-> a = b.
Proof.
  destruct a as [s1 i1 b1], b as [s2 i2 b2]; unfold nkey_eqb; simpl.
  rewrite !andb_true_iff, side_eqb_spec, !N.eqb_eq.
  split.
  - intros [[H1 H2] H3]; subst; reflexivity.
  - intros H; inversion H; subst; auto.
Qed.

Lemma nkey_eq_dec (a b : nkey) : {a = b} + {a <> b}.
Proof. exact (key_dec nkey_eqb nkey_eqb_spec a b). Qed.

Lemma batches_aux_concat b : b <> O -> forall fuel l, (length l <= fuel)%nat ->
  concat (batches_aux fuel b l) = l.
Proof.
  intros Hb. induction fuel as [|f IH]; intros l Hl.
  - destruct l; simpl in *; [reflexivity|lia].
  - destruct l as [|x r]; [reflexivity|].
    cbn [batches_aux concat].
    rewrite IH.
    + apply firstn_skipn.
    + rewrite skipn_length. simpl in Hl |- *. destruct b; [congruence|]. simpl. lia.
Qed.

Lemma batches_by_concat b l : b <> O -> concat (batches_by b l) = l.
Proof. intros Hb. unfold batches_by. apply batches_aux_concat; [exact Hb|lia]. Qed.

Lemma batch_rows_pos : batch_rows <> O.
Proof. unfold batch_rows. intros H. apply (f_equal N.of_nat) in H. rewrite N2Nat.id in H. vm_compute in H. discriminate. Qed.

(* what an expected output (key, rows) gives to side sd: the per-entry body of
   `Model.rows_of`, with the rows themselves in place of the object looked up *)
Definition sel (sd : side) (e : nkey * list row) : list row :=
  if side_eqb (nk_side (fst e)) sd then snd e else [].

Definition on_side (sd : side) (pt : Z) : row -> bool :=
  match sd with SA => is_lower pt | SB => is_upper pt end.

Lemma sel_outs_batch sd pt src i b :
  flat_map (sel sd) (outs_batch pt src i b) = filter (on_side sd pt) b.
Proof.
  (* an empty part is written as no output, and selects to [] all the same *)
  assert (H : forall sd' l, flat_map (sel sd) (match l with [] => [] | _ => [(mkNK sd' src i, l)] end)
                            = if side_eqb sd' sd then l else []).
  { intros sd' [|r l]; [destruct (side_eqb sd' sd); reflexivity|]. cbn [flat_map]. apply app_nil_r. }
  unfold outs_batch. rewrite flat_map_app, !H.
  destruct sd; cbn [side_eqb on_side]; [apply app_nil_r|reflexivity].
Qed.

Lemma sel_outs_from sd pt src bs : forall i,
  flat_map (sel sd) (outs_from pt src i bs) = filter (on_side sd pt) (concat bs).
Proof.
  induction bs as [|b r IH]; intros i; [reflexivity|].
  cbn [outs_from concat]. rewrite flat_map_app, filter_app, sel_outs_batch, IH. reflexivity.
Qed.

Lemma sel_outs sd pt src rows :
  flat_map (sel sd) (outs pt src rows) = filter (on_side sd pt) rows.
Proof.
  unfold outs, outs_by. rewrite sel_outs_from, batches_by_concat; [reflexivity|exact batch_rows_pos].
Qed.

Lemma outs_batch_keys pt src i b k r :
  In (k, r) (outs_batch pt src i b) -> nk_src k = src /\ nk_batch k = i /\ r <> [].
Proof.
  (* either part, if not empty, is written as one entry under (side, src, i) *)
  assert (P : forall sd l, In (k, r) (match l with [] => [] | _ => [(mkNK sd src i, l)] end) ->
                           nk_src k = src /\ nk_batch k = i /\ r <> []).
  { intros sd [|x l] H; [destruct H|]. destruct H as [H|[]]. inversion H; subst. simpl. repeat split; discriminate. }
  unfold outs_batch. intros H. apply in_app_or in H. destruct H as [H|H]; exact (P _ _ H).
Qed.

Lemma outs_from_keys pt src bs : forall i k r,
  In (k, r) (outs_from pt src i bs) -> nk_src k = src /\ (i <= nk_batch k)%N.
Proof.
  induction bs as [|b rest IH]; intros i k r H; [destruct H|].
  cbn [outs_from] in H. apply in_app_or in H. destruct H as [H|H].
  - apply outs_batch_keys in H. destruct H as [H1 [H2 _]]. split; [exact H1|lia].
  - apply IH in H. destruct H as [H1 H2]. split; [exact H1|lia].
Qed.

Lemma outs_batch_nodup pt src i b : NoDup (map fst (outs_batch pt src i b)).
Proof.
  unfold outs_batch.
  destruct (filter (is_lower pt) b), (filter (is_upper pt) b); simpl;
    repeat constructor; simpl; try tauto.
  (* both parts written: their keys differ in the side *)
  intros [H|[]]. discriminate.
Qed.

Lemma outs_from_nodup pt src bs : forall i, NoDup (map fst (outs_from pt src i bs)).
Proof.
  induction bs as [|b rest IH]; intros i; [constructor|].
  cbn [outs_from]. rewrite map_app.
  apply nodup_app_iff. split; [apply outs_batch_nodup|split; [apply IH|]].
  intros k H1 H2. apply in_map_fst in H1, H2. destruct H1 as [r1 H1], H2 as [r2 H2].
  apply outs_batch_keys in H1. apply outs_from_keys in H2. lia.
Qed.

Lemma outs_src pt k r i rows : In (k, r) (outs pt i rows) -> nk_src k = i.
Proof. unfold outs, outs_by. intros H. apply outs_from_keys in H. exact (proj1 H). Qed.

Section Chunks.
  Variable pt : Z.
  Variable chunks : list (N * list row).
  Hypothesis chunks_nodup : NoDup (map fst chunks).

  Definition all_outs : list (nkey * list row) :=
    flat_map (fun c => outs pt (fst c) (snd c)) chunks.

  Lemma all_outs_in k r :
    In (k, r) all_outs <-> exists i rows, In (i, rows) chunks /\ In (k, r) (outs pt i rows).
  Proof.
    unfold all_outs. rewrite in_flat_map. split.
    - intros [[i rows] [H1 H2]]. exists i, rows. auto.
    - intros [i [rows [H1 H2]]]. exists (i, rows). auto.
  Qed.

  Lemma all_outs_nodup : NoDup (map fst all_outs).
  Proof.
    unfold all_outs. clear - chunks_nodup.
    induction chunks as [|[i rows] rest IH]; [constructor|].
    simpl in chunks_nodup. inversion chunks_nodup as [|? ? Hn Hr]; subst.
    cbn [flat_map fst snd]. rewrite map_app.
    apply nodup_app_iff. split; [|split].
    - unfold outs, outs_by. apply outs_from_nodup.
    - apply IH. exact Hr.
    - intros k H1 H2. apply in_map_fst in H1, H2. destruct H1 as [r1 H1], H2 as [r2 H2].
      apply outs_src in H1.
      apply in_flat_map in H2. destruct H2 as [[j rows'] [Hj H2]]. simpl in H2.
      apply outs_src in H2. apply Hn, in_map_fst. exists rows'. rewrite <- H1, H2. exact Hj.
  Qed.

  Lemma all_outs_functional k r1 r2 : In (k, r1) all_outs -> In (k, r2) all_outs -> r1 = r2.
  Proof.
    intros H1 H2. apply (In_aget_nodup nkey_eqb nkey_eqb_spec _ _ _ all_outs_nodup) in H1, H2. congruence.
  Qed.

  Lemma sel_all_outs sd :
    flat_map (sel sd) all_outs = filter (on_side sd pt) (flat_map snd chunks).
  Proof.
    unfold all_outs. clear chunks_nodup.
    induction chunks as [|[i rows] rest IH]; [reflexivity|].
    cbn [flat_map fst snd]. rewrite flat_map_app, filter_app, sel_outs, IH. reflexivity.
  Qed.

  (* Conservation: when the catalog of the new shards holds exactly the
     expected outputs (keys unique, every entry an expected output whose object
     has the expected content, every expected output registered), the rows a
     new shard serves are a permutation of the old rows on its side. *)
  Lemma rows_of_conserve s sd :
    NoDup (map fst (s_ncat s)) ->
    (forall k m, aget nkey_eqb k (s_ncat s) = Some m ->
       exists rows, In (k, rows) all_outs /\ aget nkey_eqb k (s_nobj s) = Some rows) ->
    (forall k rows, In (k, rows) all_outs -> aget nkey_eqb k (s_ncat s) <> None) ->
    Permutation (rows_of sd s) (filter (on_side sd pt) (flat_map snd chunks)).
  Proof.
    intros Hnd Hok Hall.
    set (g := fun k : nkey => if side_eqb (nk_side k) sd
                then match aget nkey_eqb k (s_nobj s) with Some r => r | None => [] end else []).
    replace (rows_of sd s) with (flat_map g (map fst (s_ncat s)))
      by (unfold rows_of; rewrite !flat_map_concat_map, map_map; reflexivity).
    assert (P : Permutation (map fst (s_ncat s)) (map fst all_outs)).
    { apply NoDup_Permutation; [exact Hnd|exact all_outs_nodup|].
      intros k. rewrite !in_map_fst. split.
      - intros [m H]. apply (In_aget_nodup nkey_eqb nkey_eqb_spec) in H; [|exact Hnd].
        destruct (Hok _ _ H) as [rows [Hin _]]. exists rows. exact Hin.
      - intros [rows H]. specialize (Hall _ _ H).
        destruct (aget nkey_eqb k (s_ncat s)) as [m|] eqn:Em; [|congruence].
        exists m. apply (aget_In nkey_eqb nkey_eqb_spec). exact Em. }
    rewrite (Permutation_flat_map g P), <- sel_all_outs.
    rewrite !flat_map_concat_map, map_map.
    rewrite (map_ext_in (fun e => g (fst e)) (sel sd) all_outs); [reflexivity|].
    intros [k rows] Hin. unfold g, sel. cbn [fst snd].
    destruct (side_eqb (nk_side k) sd); [|reflexivity].
    specialize (Hall _ _ Hin).
    destruct (aget nkey_eqb k (s_ncat s)) as [m|] eqn:Em; [|congruence].
    destruct (Hok _ _ Em) as [rows' [Hin' Hobj]].
    rewrite Hobj. eapply all_outs_functional; eauto.
  Qed.
End Chunks.

Lemma insert_sorted_in x y l : In y (insert_sorted x l) <-> In y (x :: l).
Proof.
  induction l as [|z r IH]; simpl; [tauto|].
  destruct (N.leb x z); simpl; [tauto|]. rewrite IH. simpl. tauto.
Qed.

Lemma isort_in x l : In x (isort l) <-> In x l.
Proof.
  induction l as [|y r IH]; simpl; [tauto|].
  rewrite insert_sorted_in. simpl. rewrite IH. tauto.
Qed.

Lemma insert_sorted_nodup x l : ~ In x l -> NoDup l -> NoDup (insert_sorted x l).
Proof.
  induction l as [|z r IH]; simpl; intros Hn Hd.
  - constructor; [tauto|constructor].
  - destruct (N.leb x z).
    + constructor; [simpl; tauto|exact Hd].
    + inversion Hd as [|? ? Hz Hr]; subst. constructor.
      * rewrite insert_sorted_in. intros [E|H]; [subst; tauto|contradiction].
      * apply IH; [tauto|exact Hr].
Qed.

Lemma isort_nodup l : NoDup l -> NoDup (isort l).
Proof.
  induction l as [|y r IH]; simpl; intros Hd; [constructor|].
  inversion Hd as [|? ? Hn Hr]; subst.
  apply insert_sorted_nodup; [rewrite isort_in; exact Hn|apply IH; exact Hr].
Qed.
