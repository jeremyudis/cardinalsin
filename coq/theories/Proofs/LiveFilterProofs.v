(* Proofs/LiveFilterProofs.v — C18: the live-tail filter delivers exactly the
   rows at or after the merge point that satisfy the WHERE clause; a
   topic-filtered subscription delivers exactly the matching batches, in send
   order, each once. *)
From Coq Require Import List ZArith NArith Bool Lia.
From CS Require Import Base.Prelude Model.LiveFilter.
Import ListNotations.
Open Scope Z_scope.

Lemma list_ext_seq : forall (A : Type) (g : nat -> A) (l : list A) (n : nat),
  length l = n ->
  (forall i, (i < n)%nat -> nth_error l i = Some (g i)) ->
  l = map g (seq 0 n).
Proof.
  intros A g l n Hlen Hnth. apply (nth_ext _ _ (g 0%nat) (g 0%nat)).
  - rewrite map_length, seq_length. exact Hlen.
  - intros i Hi. rewrite Hlen in Hi. rewrite map_nth, seq_nth by exact Hi.
    apply nth_error_nth, Hnth, Hi.
Qed.

Lemma list_tabulate : forall (A : Type) (l : list A) (d : A),
  l = map (fun i => nth i l d) (seq 0 (length l)).
Proof.
  intros A l d. apply list_ext_seq; [reflexivity |]. intros i Hi. apply nth_error_nth'. exact Hi.
Qed.

Lemma map_nth_error_seq : forall (A : Type) (l : list A),
  map Some l = map (nth_error l) (seq 0 (length l)).
Proof.
  intros A l. apply list_ext_seq; [apply map_length |].
  intros i Hi. rewrite nth_error_map. destruct (nth_error l i) eqn:Hn; [reflexivity |].
  apply nth_error_None in Hn. lia.
Qed.

(* A consumer behind a queue.  D says what a queue yields when drained; if one
   event changes "delivered so far, then the queue drained" only by D of what
   it enqueues, a run ends with D of everything enqueued. *)
Lemma run_queue : forall {S E Q O : Type} {step : S -> E -> S} {total : S -> list O}
    {enq : E -> list Q} (D : list Q -> list O),
  D [] = [] -> (forall a b, D (a ++ b) = D a ++ D b) ->
  (forall st e, total (step st e) = total st ++ D (enq e)) ->
  forall evs st, total (fold_left step evs st) = total st ++ D (flat_map enq evs).
Proof.
  intros S E Q O step total enq D Dnil Dapp Hstep evs.
  induction evs as [| e evs IH]; intros st; cbn [fold_left flat_map].
  - rewrite Dnil, app_nil_r. reflexivity.
  - rewrite IH, Hstep, Dapp, app_assoc. reflexivity.
Qed.

(* pointwise: mask' is mask with position i additionally required to satisfy g i *)
Definition pw (g : nat -> bool) (mask mask' : list bool) : Prop :=
  length mask' = length mask /\
  forall i m, nth_error mask i = Some m -> nth_error mask' i = Some (m && g i)%bool.

(* the test mask_upd f puts on position i: none beyond the end of a column
   shorter than the mask, where mask_upd leaves the bits as they are *)
Definition at_row {A : Type} (f : A -> bool) (vals : list A) (i : nat) : bool :=
  match nth_error vals i with Some x => f x | None => true end.

Lemma at_row_in : forall (A : Type) (vals : list A) (i : nat),
  (i < length vals)%nat -> exists x, nth_error vals i = Some x /\ forall f, at_row f vals i = f x.
Proof.
  intros A vals i Hi. unfold at_row. destruct (nth_error vals i) as [x |] eqn:Hn.
  - exists x. split; reflexivity.
  - apply nth_error_None in Hn. lia.
Qed.

Lemma mask_upd_length : forall (A : Type) (f : A -> bool) (mask : list bool) (vals : list A),
  length (mask_upd f mask vals) = length mask.
Proof.
  intros A f mask. induction mask as [| m ms IH]; intros vals.
  - destruct vals; reflexivity.
  - destruct vals as [| x xs]; [reflexivity |]. cbn [mask_upd length]. rewrite IH. reflexivity.
Qed.

Lemma mask_upd_pw : forall (A : Type) (f : A -> bool) (mask : list bool) (vals : list A),
  pw (at_row f vals) mask (mask_upd f mask vals).
Proof.
  intros A f mask vals. split; [apply mask_upd_length |].
  revert vals. induction mask as [| m ms IH]; intros vals i m0 Hm; [destruct i; discriminate |].
  destruct vals as [| x xs].
  - cbn [mask_upd]. rewrite Hm. f_equal. destruct i; symmetry; apply andb_true_r.
  - destruct i as [| i]; cbn [nth_error] in Hm.
    + injection Hm as <-. destruct m; reflexivity.
    + exact (IH xs i m0 Hm).
Qed.

Lemma pw_id : forall mask, pw (fun _ => true) mask mask.
Proof.
  intro mask. split; [reflexivity |]. intros i m H. rewrite H, andb_true_r. reflexivity.
Qed.

Lemma pw_ext : forall g h mask mask',
  (forall i, (i < length mask)%nat -> g i = h i) -> pw g mask mask' -> pw h mask mask'.
Proof.
  intros g h mask mask' Hgh [Hl Hn]. split; [exact Hl |].
  intros i m Hm. rewrite (Hn i m Hm).
  rewrite Hgh; [reflexivity |]. apply nth_error_Some. congruence.
Qed.

Lemma pw_trans : forall g h m0 m1 m2,
  pw g m0 m1 -> pw h m1 m2 -> pw (fun i => g i && h i)%bool m0 m2.
Proof.
  intros g h m0 m1 m2 [L1 N1] [L2 N2]. split; [congruence |].
  intros i m Hm. rewrite (N2 i _ (N1 i m Hm)). rewrite andb_assoc. reflexivity.
Qed.

Lemma zip_or_length : forall a b, length a = length b -> length (zip_or a b) = length a.
Proof.
  induction a as [| x a IH]; intros b H; destruct b as [| y b]; try discriminate; [reflexivity |].
  cbn [zip_or length]. rewrite IH; [reflexivity |]. cbn [length] in H. lia.
Qed.

Lemma zip_or_nth : forall a b i x y,
  nth_error a i = Some x -> nth_error b i = Some y -> nth_error (zip_or a b) i = Some (x || y)%bool.
Proof.
  induction a as [| x0 a IH]; intros b i x y Ha Hb.
  - destruct i; discriminate.
  - destruct b as [| y0 b]; [destruct i; discriminate |].
    destruct i as [| i]; cbn [nth_error zip_or] in *.
    + congruence.
    + eapply IH; eassumption.
Qed.

Lemma pw_or : forall g h m0 m1 m2,
  pw g m0 m1 -> pw h m0 m2 -> pw (fun i => g i || h i)%bool m0 (zip_or m1 m2).
Proof.
  intros g h m0 m1 m2 [L1 N1] [L2 N2]. split.
  - rewrite zip_or_length; congruence.
  - intros i m Hm. rewrite (zip_or_nth _ _ _ _ _ (N1 i m Hm) (N2 i m Hm)).
    destruct m, (g i), (h i); reflexivity.
Qed.

(* leaf_row, pred_row and ts_row below are the per-row tests that
   apply_comparison, apply_pred and ts_mask AND into position i of the mask *)
Definition leaf_row (op : cop) (c : column) (v : pvalue) (i : nat) : bool :=
  match v with
  | PStr e =>
      match c with
      | CStr vals => at_row (on_some (fun s => test_cmp op (str_cmp s e))) vals i
      | _ => true
      end
  | PInt e =>
      match c with
      | CInt vals => at_row (on_some (fun a => test_cmp op (Z.compare a e))) vals i
      | CFloat vals => at_row (on_some (fun x => test_cmp op (f64_total_cmp x (z2f e)))) vals i
      | _ => true
      end
  | PFloat e =>
      match c with
      | CFloat vals => at_row (on_some (fun x => test_cmp op (f64_total_cmp x e))) vals i
      | CInt vals => at_row (on_some (fun a => test_cmp op (f64_total_cmp (z2f a) e))) vals i
      | _ => true
      end
  | _ => true
  end.

Fixpoint pred_row (p : cpred) (cols : list (str * column)) (i : nat) : bool :=
  match p with
  | PCmp op col v => match find_col col cols with Some c => leaf_row op c v i | None => true end
  | PAnd l r => pred_row l cols i && pred_row r cols i
  | POr l r => pred_row l cols i || pred_row r cols i
  end.

Lemma apply_comparison_pw : forall op c v mask,
  pw (leaf_row op c v) mask (apply_comparison op c v mask).
Proof.
  intros op c v mask.
  destruct v as [e | e | e | e |]; destruct c as [vals | vals | vals | vals | vals];
    cbn [apply_comparison leaf_row]; try apply pw_id; apply mask_upd_pw.
Qed.

Lemma apply_pred_pw : forall p cols mask, pw (pred_row p cols) mask (apply_pred p cols mask).
Proof.
  induction p as [op col v | l IHl r IHr | l IHl r IHr]; intros cols mask.
  - (* PCmp *) cbn [apply_pred pred_row]. destruct (find_col col cols) as [c |].
    + apply apply_comparison_pw.
    + apply pw_id.
  - (* PAnd *) cbn [apply_pred pred_row]. eapply pw_trans; [apply IHl | apply IHr].
  - (* POr *) cbn [apply_pred pred_row]. apply pw_or; [apply IHl | apply IHr].
Qed.

Lemma fold_pred_pw : forall (f : qfilter) cols mask,
  pw (fun i => forallb (fun p => pred_row p cols i) f) mask
     (fold_left (fun m p => apply_pred p cols m) f mask).
Proof.
  induction f as [| p f IH]; intros cols mask.
  - cbn [fold_left forallb]. apply pw_id.
  - cbn [fold_left forallb]. eapply pw_trans; [apply apply_pred_pw | apply IH].
Qed.

Definition ts_row (cols : list (str * column)) (merge : Z) (i : nat) : bool :=
  match find_col ts_name cols with
  | Some (CTs v) | Some (CInt v) =>
      at_row (fun x => match x with Some t => negb (t <? merge) | None => true end) v i
  | _ => true
  end.

Lemma ts_mask_pw : forall cols merge mask, pw (ts_row cols merge) mask (ts_mask cols merge mask).
Proof.
  intros cols merge mask. unfold ts_mask, ts_row.
  destruct (find_col ts_name cols) as [[v | v | v | v | v] |]; try apply pw_id; apply mask_upd_pw.
Qed.

Lemma pw_all_true : forall g n mask, pw g (repeat true n) mask -> mask = map g (seq 0 n).
Proof.
  intros g n mask [HL HN]. apply list_ext_seq.
  - rewrite HL. apply repeat_length.
  - intros i Hi. rewrite (HN i true (nth_error_repeat true Hi)). reflexivity.
Qed.

Lemma final_mask_rows : forall f b merge,
  final_mask f b merge =
  map (fun i => ts_row (b_cols b) merge i && forallb (fun p => pred_row p (b_cols b) i) f)%bool
      (seq 0 (b_rows b)).
Proof.
  intros f b merge. apply pw_all_true. unfold final_mask.
  eapply pw_trans; [apply ts_mask_pw | apply fold_pred_pw].
Qed.

Lemma str_cmp_antisym : forall a b, str_cmp b a = CompOpp (str_cmp a b).
Proof.
  induction a as [| x a IH]; intros b; destruct b as [| y b]; try reflexivity.
  cbn [str_cmp]. rewrite (N.compare_antisym x y).
  destruct (N.compare x y); cbn [CompOpp]; [apply IH | reflexivity | reflexivity].
Qed.

Lemma vcmp_antisym : forall a b, vcmp b a = option_map CompOpp (vcmp a b).
Proof.
  intros a b. destruct a, b; cbn [vcmp option_map]; try reflexivity; f_equal;
    unfold f64_total_cmp; try apply Z.compare_antisym; apply str_cmp_antisym.
Qed.

Definition flip (o : cop) : cop :=
  match o with OpLt => OpGt | OpLe => OpGe | OpGt => OpLt | OpGe => OpLe | x => x end.

Lemma test_cmp_flip : forall o c, test_cmp (flip o) c = test_cmp o (CompOpp c).
Proof. intros o c. destruct o, c; reflexivity. Qed.

Lemma test_cmp_swap : forall o x y,
  option_map (test_cmp o) (vcmp y x) = option_map (test_cmp (flip o)) (vcmp x y).
Proof.
  intros o x y. rewrite (vcmp_antisym x y). destruct (vcmp x y); [| reflexivity].
  cbn [option_map]. rewrite test_cmp_flip. reflexivity.
Qed.

Lemma cop_of_reverse : forall op o, cop_of op = Some o -> cop_of (reverse_op op) = Some (flip o).
Proof. intros op o H. destruct op; cbn in H; try discriminate; injection H as <-; reflexivity. Qed.

Lemma is_cmp_cop : forall op, is_cmp op = true -> exists o, cop_of op = Some o.
Proof. intros op H. destruct op; try discriminate; eexists; reflexivity. Qed.

Lemma istrue_some : forall x, istrue (Some x) = x.
Proof. intros x. destruct x; reflexivity. Qed.

Lemma istrue_and3 : forall x y, istrue (and3 x y) = (istrue x && istrue y)%bool.
Proof. intros [[|] |] [[|] |]; reflexivity. Qed.

Lemma istrue_or3 : forall x y, istrue (or3 x y) = (istrue x || istrue y)%bool.
Proof. intros [[|] |] [[|] |]; reflexivity. Qed.

(* the PredicateValue parse_sql_value yields for a literal of SQL value v; only
   applied to results of lit_value, which are VInt, VFloat or VStr *)
Definition pv_of (v : value) : pvalue :=
  match v with VInt z => PInt z | VFloat f => PFloat f | VStr s => PStr s | _ => PNull end.

(* a number in range, with or without sign: parse_number's i64 test is the
   range test the fragment puts on integer literals *)
Lemma num_parse : forall (neg : bool) t,
  let e := if neg then ENeg (ENum t) else ENum t in
  lit_in_range e = true -> exists lv, lit_value e = Some lv /\ parse_sql_value e = Some (pv_of lv).
Proof.
  intros neg t e H. subst e. destruct t as [z | f].
  - (* integer text: the in_i64 test parse_number branches on is the second
       conjunct of lit_in_range *)
    destruct neg; apply andb_true_iff in H as [_ Hin]; eexists;
      cbn [parse_sql_value parse_number]; rewrite Hin; split; reflexivity.
  - (* decimal text: a float whatever its size *)
    destruct neg; eexists; split; reflexivity.
Qed.

(* a supported literal: parse_sql_value produces the value the SQL text denotes *)
Lemma lit_parse : forall e, lit_in_range e = true ->
  exists lv, lit_value e = Some lv /\ parse_sql_value e = Some (pv_of lv).
Proof.
  intros e H. destruct e as [n | t | s | bb | | e' | op l r | e' |]; try discriminate H.
  - (* ENum *) exact (num_parse false t H).
  - (* EStr *) exists (VStr s). split; reflexivity.
  - (* ENeg: of a number only *)
    destruct e' as [| t | | | | | | |]; try discriminate H. exact (num_parse true t H).
Qed.

(* a supported literal is not an identifier: as an operand it is read as a
   literal, it is not the column side of a comparison, and it leaves the column
   side to the other operand *)
Lemma operand_value_lit : forall b i e, lit_in_range e = true -> operand_value b i e = lit_value e.
Proof. intros b i e H. destruct e; try reflexivity. discriminate H. Qed.

Lemma try_column_op_value_lit : forall c op v, lit_in_range c = true -> try_column_op_value c op v = None.
Proof. intros c op v H. destruct c; try reflexivity. discriminate H. Qed.

Lemma leaf_col_lit_rev : forall op l n, lit_in_range l = true ->
  leaf_col_lit (EBin op l (EIdent n)) = Some (lower n, l).
Proof. intros op l n H. destruct l; try reflexivity. discriminate H. Qed.

Lemma find_col_wf : forall name cols n c,
  forallb (fun nc : str * column => Nat.eqb (col_len (snd nc)) n) cols = true ->
  find_col name cols = Some c -> col_len c = n.
Proof.
  intros name cols n c. induction cols as [| [k c0] cols IH]; intros Hwf Hf; [discriminate |].
  cbn [forallb find_col snd] in *. apply andb_true_iff in Hwf as [H0 Hr].
  destruct (str_eqb k name).
  - injection Hf as <-. apply Nat.eqb_eq. exact H0.
  - apply IH; assumption.
Qed.

(* the core of a comparison: the physical-type dispatch of apply_comparison
   computes the SQL comparison of the cell with the literal *)
Lemma leaf_core : forall o c lit lv i,
  lit_value lit = Some lv -> comparable c lit = true -> (i < col_len c)%nat ->
  leaf_row o c (pv_of lv) i =
  istrue (match cell_of c i with Some x => option_map (test_cmp o) (vcmp x lv) | None => None end).
Proof.
  intros o c lit lv i Hl Hc Hi. unfold comparable in Hc. rewrite Hl in Hc.
  destruct lv as [z | f | s | z | z |], c as [vals | vals | vals | vals | vals]; try discriminate Hc;
    cbn [pv_of leaf_row cell_of col_len] in *.
  (* the five comparable pairs go alike: the cell exists; a value is compared
     by the same order on both sides, a null passes on neither *)
  all: destruct (at_row_in _ vals i Hi) as [[x |] [Hn Hat]]; rewrite Hn, Hat; cbn [option_map on_some vcmp].
  all: first [reflexivity | symmetry; apply istrue_some].
Qed.

(* eval, expr_to_predicate, extract, cols_present, type_mismatch and supported
   single out BAnd / BOr before their default branch, so at a variable operator
   they reduce only by cases on it *)
Lemma eval_cmp : forall op l r b i, is_cmp op = true ->
  eval (EBin op l r) b i =
  match cop_of op, operand_value b i l, operand_value b i r with
  | Some o, Some x, Some y => option_map (test_cmp o) (vcmp x y)
  | _, _, _ => None
  end.
Proof. intros op l r b i H. destruct op; try discriminate; reflexivity. Qed.

(* etp: expr_to_predicate *)
Lemma etp_cmp : forall op l r, is_cmp op = true ->
  expr_to_predicate (EBin op l r) = try_extract_comparison l op r.
Proof. intros op l r H. destruct op; try discriminate; reflexivity. Qed.

Lemma extract_nonand : forall op l r, op <> BAnd ->
  extract (EBin op l r) =
  match expr_to_predicate (EBin op l r) with Some p => [p] | None => [] end.
Proof. intros op l r H. destruct op; try reflexivity. contradiction. Qed.

Lemma cols_present_cmp : forall op l r b, is_cmp op = true ->
  cols_present (EBin op l r) b =
  match leaf_col_lit (EBin op l r) with
  | Some (n, _) => match find_col n (b_cols b) with Some _ => true | None => false end
  | None => true
  end.
Proof. intros op l r b H. destruct op; try discriminate; reflexivity. Qed.

Lemma type_mismatch_cmp : forall op l r b, is_cmp op = true ->
  type_mismatch (EBin op l r) b =
  match leaf_col_lit (EBin op l r) with
  | Some (n, lit) => match find_col n (b_cols b) with
                     | Some c => negb (comparable c lit)
                     | None => false
                     end
  | None => false
  end.
Proof. intros op l r b H. destruct op; try discriminate; reflexivity. Qed.

Lemma supported_cmp : forall op l r, is_cmp op = true ->
  supported (EBin op l r) =
  match l, r with
  | EIdent _, _ => lit_in_range r
  | _, EIdent _ => lit_in_range l
  | _, _ => false
  end.
Proof. intros op l r H. destruct op; try discriminate; reflexivity. Qed.

Lemma supported_other : forall l r, supported (EBin BOther l r) = false.
Proof. intros l r. destruct l; destruct r; reflexivity. Qed.

Lemma supported_cmp_shape : forall op l r, is_cmp op = true -> supported (EBin op l r) = true ->
  (exists n, l = EIdent n /\ lit_in_range r = true) \/
  (exists n, r = EIdent n /\ lit_in_range l = true).
Proof.
  intros op l r Hc Hs. rewrite (supported_cmp _ _ _ Hc) in Hs.
  (* l is an identifier, or else r has to be one *)
  destruct l; try (left; eexists; exact (conj eq_refl Hs));
    destruct r; try discriminate Hs; right; eexists; exact (conj eq_refl Hs).
Qed.

(* The comparison `l op r` amounts to `column n o literal`, whichever side the
   column stands on (a reversed comparison has its operator flipped). *)
Set Implicit Arguments.
Record cmp_normal (op : binop) (l r : sexpr) (o : cop) (n : str) (lit : sexpr) (lv : value) : Prop := {
  cn_leaf : leaf_col_lit (EBin op l r) = Some (lower n, lit);   (* the column and literal the side conditions look at *)
  cn_value : lit_value lit = Some lv;
  cn_pred : try_extract_comparison l op r = Some (PCmp o (lower n) (pv_of lv));   (* what from_sql extracts *)
  cn_eval : forall b i, eval (EBin op l r) b i =                (* what the clause means *)
                        match cell b (lower n) i with
                        | Some x => option_map (test_cmp o) (vcmp x lv)
                        | None => None
                        end
}.
Unset Implicit Arguments.

Lemma supported_cmp_normal : forall op l r,
  is_cmp op = true -> supported (EBin op l r) = true ->
  exists o n lit lv, cmp_normal op l r o n lit lv.
Proof.
  intros op l r Hcmp Hsup.
  destruct (is_cmp_cop _ Hcmp) as [o Ho].
  destruct (supported_cmp_shape _ _ _ Hcmp Hsup) as [[n [-> Hlit]] | [n [-> Hlit]]];
    destruct (lit_parse _ Hlit) as [lv [Hlv Hparse]].
  - (* column op literal *)
    exists o, n, r, lv. split; [reflexivity | exact Hlv | |].
    + unfold try_extract_comparison, try_column_op_value. rewrite Hparse, Ho. reflexivity.
    + intros b i. rewrite (eval_cmp _ _ _ _ _ Hcmp), Ho, (operand_value_lit b i _ Hlit), Hlv. reflexivity.
  - (* literal op column *)
    exists (flip o), n, l, lv. split; [exact (leaf_col_lit_rev op l n Hlit) | exact Hlv | |].
    + unfold try_extract_comparison. rewrite (try_column_op_value_lit l _ _ Hlit).
      unfold try_column_op_value. rewrite Hparse, (cop_of_reverse _ _ Ho). reflexivity.
    + intros b i. rewrite (eval_cmp _ _ _ _ _ Hcmp), Ho, (operand_value_lit b i _ Hlit), Hlv.
      cbn [operand_value]. destruct (cell b (lower n) i); [apply test_cmp_swap | reflexivity].
Qed.

Definition clause_ok (sel : option sexpr) (b : batch) : Prop :=
  match sel with
  | Some w => supported w = true /\ cols_present w b = true /\ type_mismatch w b = false
  | None => True
  end.

Definition expr_ok (w : sexpr) (b : batch) : Prop := clause_ok (Some w) b.

Lemma expr_ok_conn : forall op l r b, is_cmp op = false -> expr_ok (EBin op l r) b ->
  (op = BAnd \/ op = BOr) /\ expr_ok l b /\ expr_ok r b.
Proof.
  intros op l r b Hop [Hs [Hp Hm]].
  (* on AND and OR alike each side condition is the conjunction of those of the operands *)
  assert (Hsplit : (supported l && supported r)%bool = true ->
                   (cols_present l b && cols_present r b)%bool = true ->
                   (type_mismatch l b || type_mismatch r b)%bool = false ->
                   expr_ok l b /\ expr_ok r b).
  { intros Hs' Hp' Hm'. apply andb_true_iff in Hs' as [? ?]. apply andb_true_iff in Hp' as [? ?].
    apply orb_false_iff in Hm' as [? ?]. repeat split; assumption. }
  destruct op; try discriminate Hop.
  - (* BAnd *) exact (conj (or_introl eq_refl) (Hsplit Hs Hp Hm)).
  - (* BOr *) exact (conj (or_intror eq_refl) (Hsplit Hs Hp Hm)).
  - (* BOther *) rewrite supported_other in Hs. discriminate Hs.
Qed.

(* splitting the top-level conjunction into a list of predicates does not
   change what is tested *)
Lemma extract_etp : forall e cols i,
  forallb (fun p => pred_row p cols i) (extract e) =
  match expr_to_predicate e with Some p => pred_row p cols i | None => true end.
Proof.
  intros e cols i.
  induction e as [n | t | s | bb | | e' IH | op l IHl r IHr | e' IH |]; try reflexivity.
  - (* EBin: only AND is split *)
    assert (Hwhole : op <> BAnd ->
              forallb (fun p => pred_row p cols i) (extract (EBin op l r)) =
              match expr_to_predicate (EBin op l r) with Some p => pred_row p cols i | None => true end).
    { intros Hne. rewrite (extract_nonand _ _ _ Hne).
      destruct (expr_to_predicate (EBin op l r)); [apply andb_true_r | reflexivity]. }
    destruct op; try (apply Hwhole; discriminate).
    (* BAnd *)
    cbn [extract expr_to_predicate]. rewrite forallb_app, IHl, IHr.
    destruct (expr_to_predicate l), (expr_to_predicate r); cbn [pred_row];
      rewrite ?andb_true_r; reflexivity.
  - (* ENested *) exact IH.
Qed.

Section Typed.
  Variable b : batch.
  Hypothesis Hwf : wf_batch b = true.

  Lemma leaf_ok : forall op l r,
    is_cmp op = true -> expr_ok (EBin op l r) b ->
    exists p, try_extract_comparison l op r = Some p /\
              forall i, (i < b_rows b)%nat ->
                        pred_row p (b_cols b) i = istrue (eval (EBin op l r) b i).
  Proof.
    intros op l r Hcmp [Hsup [Hpres Hmis]].
    destruct (supported_cmp_normal _ _ _ Hcmp Hsup) as [o [n [lit [lv N]]]].
    rewrite (cols_present_cmp _ _ _ _ Hcmp), (cn_leaf N) in Hpres.
    rewrite (type_mismatch_cmp _ _ _ _ Hcmp), (cn_leaf N) in Hmis.
    destruct (find_col (lower n) (b_cols b)) as [c |] eqn:Hfind; [| discriminate].
    apply negb_false_iff in Hmis.
    exists (PCmp o (lower n) (pv_of lv)). split; [exact (cn_pred N) |]. intros i Hi.
    cbn [pred_row]. rewrite Hfind, (cn_eval N). unfold cell. rewrite Hfind.
    rewrite (leaf_core o c lit lv i (cn_value N) Hmis)
      by (rewrite (find_col_wf _ _ _ _ Hwf Hfind); exact Hi).
    reflexivity.
  Qed.

  Lemma etp_ok : forall e, expr_ok e b ->
    exists p, expr_to_predicate e = Some p /\
              forall i, (i < b_rows b)%nat -> pred_row p (b_cols b) i = istrue (eval e b i).
  Proof.
    induction e as [n | t | s | bb | | e' IH | op l IHl r IHr | e' IH |]; intros Hok;
      try (destruct Hok as [Hs _]; discriminate Hs).
    - (* EBin *) destruct (is_cmp op) eqn:Hcmp.
      + rewrite (etp_cmp _ _ _ Hcmp). apply leaf_ok; assumption.
      + destruct (expr_ok_conn _ _ _ _ Hcmp Hok) as [Hop [Hl Hr]].
        destruct (IHl Hl) as [p1 [E1 R1]], (IHr Hr) as [p2 [E2 R2]].
        destruct Hop as [-> | ->]; cbn [expr_to_predicate eval]; rewrite E1, E2.
        * (* BAnd *) exists (PAnd p1 p2). split; [reflexivity |]. intros i Hi.
          cbn [pred_row]. rewrite istrue_and3, (R1 i Hi), (R2 i Hi). reflexivity.
        * (* BOr *) exists (POr p1 p2). split; [reflexivity |]. intros i Hi.
          cbn [pred_row]. rewrite istrue_or3, (R1 i Hi), (R2 i Hi). reflexivity.
    - (* ENested *) exact (IH Hok).
  Qed.
End Typed.

Lemma ts_row_ge : forall b merge i,
  wf_batch b = true -> ts_col_ok b = true -> (i < b_rows b)%nat ->
  ts_row (b_cols b) merge i = ts_ge b merge i.
Proof.
  intros b merge i Hwf Hts Hi. unfold ts_row, ts_ge, cell, ts_col_ok in *.
  destruct (find_col ts_name (b_cols b)) as [c |] eqn:Hfind; [| discriminate].
  rewrite <- (find_col_wf _ _ _ _ Hwf Hfind) in Hi.
  destruct c as [v | v | v | v | v]; try discriminate Hts; cbn [col_len cell_of] in *.
  (* CInt and CTs alike: the cell exists and is not null *)
  all: destruct (at_row_in _ v i Hi) as [x [Hn ->]]; rewrite Hn.
  all: pose proof (proj1 (forallb_forall _ _) Hts _ (nth_error_In _ _ Hn)) as Hx;
    destruct x as [t |]; [| discriminate Hx].
  all: cbn [option_map]; symmetry; apply Z.leb_antisym.
Qed.

Lemma existsb_count_true : forall mask,
  existsb (fun x : bool => x) mask = negb (Nat.eqb (count_true mask) 0).
Proof.
  unfold count_true. induction mask as [| [|] ms IH]; [reflexivity | reflexivity | exact IH].
Qed.

Lemma final_mask_keep : forall sel b merge,
  wf_batch b = true -> ts_col_ok b = true -> clause_ok sel b ->
  final_mask (from_sql sel) b merge = keep_mask sel b merge.
Proof.
  intros sel b merge Hwf Hts Hok. rewrite final_mask_rows. unfold keep_mask.
  apply map_ext_in. intros i Hin. apply in_seq in Hin. assert (Hi : (i < b_rows b)%nat) by lia.
  rewrite (ts_row_ge b merge i Hwf Hts Hi). f_equal.
  destruct sel as [w |]; cbn [from_sql sat].
  - (* WHERE w *) rewrite extract_etp. destruct (etp_ok b Hwf w Hok) as [p [-> R]]. exact (R i Hi).
  - (* no WHERE *) reflexivity.
Qed.

(* For a flushed batch (columns of equal length, non-null Timestamp(ns)/Int64
   timestamp column) and a WHERE clause built from
   `column op literal`, `literal op column`, AND, OR and parentheses in any
   nesting, whose columns exist in the batch with a physical type the literal is
   compared with (number/number in any int/float mix, string/string), the
   subscriber receives exactly the rows at or after the merge point that satisfy
   the clause under SQL three-valued semantics.
   No step below reasons about floats: the axioms of the classical reals that
   Print Assumptions lists come with the definition of z2f (Flocq's
   binary_normalize), which code and specification share. *)
Theorem live_exact : forall sel b merge,
  wf_batch b = true -> ts_col_ok b = true -> clause_ok sel b ->
  apply (from_sql sel) b merge = spec_apply sel b merge.
Proof.
  intros sel b merge Hwf Hts Hok. unfold apply, spec_apply.
  rewrite (final_mask_keep sel b merge Hwf Hts Hok).
  destruct (Nat.eqb (b_rows b) 0) eqn:Hz.
  - apply Nat.eqb_eq in Hz. unfold keep_mask. rewrite Hz. reflexivity.
  - (* a mask has a set bit iff it selects some row: the last test of apply is redundant *)
    cbn [filter_batch b_rows]. rewrite existsb_count_true.
    destruct (Nat.eqb (count_true (keep_mask sel b merge)) 0); reflexivity.
Qed.

Theorem live_modulo_known : forall w b merge,
  supported w = true -> cols_present w b = true ->
  wf_batch b = true -> ts_col_ok b = true ->
  known_class (Some w) b = false ->
  apply (from_sql (Some w)) b merge = spec_apply (Some w) b merge.
Proof.
  intros w b merge Hs Hp Hwf Hts Hk. exact (live_exact (Some w) b merge Hwf Hts (conj Hs (conj Hp Hk))).
Qed.

(* the whole live tail of a subscriber that keeps up: per flushed batch, in
   flush order, the rows spec_apply selects; batches without such rows are skipped *)
Fixpoint spec_tail (sel : option sexpr) (merge : Z) (received : list batch) : list batch :=
  match received with
  | [] => []
  | b :: r => match spec_apply sel b merge with
              | Some fb => fb :: spec_tail sel merge r
              | None => spec_tail sel merge r
              end
  end.

Theorem live_tail_exact : forall sel merge received,
  Forall (fun b => wf_batch b = true /\ ts_col_ok b = true /\ clause_ok sel b) received ->
  live_tail (from_sql sel) merge received = spec_tail sel merge received.
Proof.
  intros sel merge received H. induction H as [| b r [Hwf [Hts Hok]] _ IH]; [reflexivity |].
  cbn [live_tail spec_tail]. rewrite (live_exact sel b merge Hwf Hts Hok), IH. reflexivity.
Qed.

Lemma live_tail_app : forall f merge a b,
  live_tail f merge (a ++ b) = live_tail f merge a ++ live_tail f merge b.
Proof.
  intros f merge a b. induction a as [| x a IH]; [reflexivity |].
  cbn [app live_tail]. destruct (apply f x merge); cbn [app]; rewrite IH; reflexivity.
Qed.

Lemma xstep_total : forall f merge st e,
  snd (xstep f merge st e) ++ live_tail f merge (fst (xstep f merge st e)) =
  (snd st ++ live_tail f merge (fst st)) ++
  live_tail f merge (match e with XFlush b => [b] | XStep => [] end).
Proof.
  intros f merge [q d] [b |]; cbn [xstep fst snd].
  - (* XFlush *) rewrite live_tail_app, app_assoc. reflexivity.
  - (* XStep *) rewrite app_nil_r. destruct q as [| b q]; [reflexivity |].
    cbn [live_tail]. destruct (apply f b merge); [cbn [fst snd]; rewrite <- app_assoc |]; reflexivity.
Qed.

(* Whatever the interleaving of flushes and forwarding-task iterations after the
   streaming call has returned (in particular: all flushes before the task's
   first iteration, i.e. while it is still handing over the historical result),
   the consumer ends up with the live tail of ALL batches flushed since the
   subscription point, each once, in flush order. *)
Theorem executor_delivers_all : forall f merge evs,
  xdelivered f merge evs = live_tail f merge (xflushes evs).
Proof.
  intros f merge evs.
  exact (run_queue (live_tail f merge) eq_refl (live_tail_app f merge) (xstep_total f merge) evs ([], [])).
Qed.

Theorem executor_exact : forall sel merge evs,
  Forall (fun b => wf_batch b = true /\ ts_col_ok b = true /\ clause_ok sel b) (xflushes evs) ->
  xdelivered (from_sql sel) merge evs = spec_tail sel merge (xflushes evs).
Proof.
  intros sel merge evs H. rewrite executor_delivers_all. apply live_tail_exact. exact H.
Qed.

(* the original indices of the rows filter_batch delivers, in delivery order *)
Definition kept_indices (mask : list bool) : list nat := filter_list mask (seq 0 (length mask)).

Lemma filter_list_map : forall (A B : Type) (f : A -> B) (mask : list bool) (l : list A),
  filter_list mask (map f l) = map f (filter_list mask l).
Proof.
  intros A B f mask. induction mask as [| m ms IH]; intros l; [reflexivity |].
  destruct l as [| x xs]; [reflexivity |]. cbn [map filter_list]. destruct m; cbn [map]; rewrite IH; reflexivity.
Qed.

Lemma filter_list_self : forall (A : Type) (g : A -> bool) (l : list A),
  filter_list (map g l) l = filter g l.
Proof.
  intros A g l. induction l as [| x l IH]; [reflexivity |].
  cbn [map filter_list filter]. rewrite IH. reflexivity.
Qed.

Lemma filter_list_length : forall (A : Type) (mask : list bool) (l : list A),
  length l = length mask -> length (filter_list mask l) = count_true mask.
Proof.
  intros A mask. unfold count_true. induction mask as [| m ms IH]; intros [| x l] Hlen; try discriminate Hlen;
    [reflexivity |].
  cbn [filter_list filter]. destruct m; cbn [length]; rewrite IH by (injection Hlen; auto); reflexivity.
Qed.

Lemma filter_list_indices : forall (A : Type) (mask : list bool) (vals : list A),
  length vals = length mask ->
  map Some (filter_list mask vals) = map (nth_error vals) (kept_indices mask).
Proof.
  intros A mask vals Hlen. unfold kept_indices.
  rewrite <- filter_list_map, <- filter_list_map, <- Hlen, <- map_nth_error_seq. reflexivity.
Qed.

Lemma filter_list_nth : forall (A : Type) (mask : list bool) (vals : list A) (k : nat),
  length vals = length mask ->
  nth_error (filter_list mask vals) k =
  match nth_error (kept_indices mask) k with Some j => nth_error vals j | None => None end.
Proof.
  intros A mask vals k Hlen.
  pose proof (f_equal (fun l => nth_error l k) (filter_list_indices _ mask vals Hlen)) as H.
  cbn beta in H. rewrite !nth_error_map in H.
  destruct (nth_error (kept_indices mask) k), (nth_error (filter_list mask vals) k);
    cbn [option_map] in H; congruence.
Qed.

Lemma cell_of_filter : forall mask c k, col_len c = length mask ->
  cell_of (filter_col mask c) k =
  match nth_error (kept_indices mask) k with Some j => cell_of c j | None => None end.
Proof.
  intros mask c k Hlen.
  destruct c as [v | v | v | v | v]; cbn [filter_col cell_of col_len] in *;
    rewrite (filter_list_nth _ mask v k Hlen);
    destruct (nth_error (kept_indices mask) k); reflexivity.
Qed.

Lemma find_col_map : forall (g : column -> column) name cols,
  find_col name (map (fun nc : str * column => (fst nc, g (snd nc))) cols) =
  option_map g (find_col name cols).
Proof.
  intros g name cols. induction cols as [| [n c] cols IH]; [reflexivity |].
  cbn [map find_col fst snd]. destruct (str_eqb n name); [reflexivity | exact IH].
Qed.

(* the k-th delivered row is, in every column, the original row at the k-th
   kept index *)
Theorem filter_batch_cells : forall mask b name k,
  wf_batch b = true -> length mask = b_rows b ->
  cell (filter_batch mask b) name k =
  match nth_error (kept_indices mask) k with Some j => cell b name j | None => None end.
Proof.
  intros mask b name k Hwf Hlen. unfold cell. cbn [filter_batch b_cols].
  rewrite find_col_map.
  destruct (find_col name (b_cols b)) as [c |] eqn:Hf; cbn [option_map].
  - apply cell_of_filter. rewrite (find_col_wf _ _ _ _ Hwf Hf). symmetry. exact Hlen.
  - destruct (nth_error (kept_indices mask) k); reflexivity.
Qed.

(* the kept indices are exactly the positions whose mask bit is set, in
   ascending order (a `filter` of 0,1,...,n-1), hence each at most once *)
Theorem kept_indices_filter : forall mask,
  kept_indices mask = filter (fun i => nth i mask false) (seq 0 (length mask)).
Proof.
  intros mask. rewrite <- filter_list_self, <- list_tabulate. reflexivity.
Qed.

Theorem kept_indices_nodup : forall mask, NoDup (kept_indices mask).
Proof. intros mask. rewrite kept_indices_filter. apply NoDup_filter. apply seq_NoDup. Qed.

Lemma count_true_kept : forall mask, count_true mask = length (kept_indices mask).
Proof. intros mask. symmetry. apply filter_list_length, seq_length. Qed.

Lemma kept_indices_map : forall (g : nat -> bool) (n : nat),
  kept_indices (map g (seq 0 n)) = filter g (seq 0 n).
Proof.
  intros g n. unfold kept_indices. rewrite map_length, seq_length. apply filter_list_self.
Qed.

(* the original row indices that must arrive: at or after the merge point and
   satisfying the clause, in batch order *)
Definition wanted (sel : option sexpr) (b : batch) (merge : Z) : list nat :=
  filter (fun i => ts_ge b merge i && sat sel b i)%bool (seq 0 (b_rows b)).

(* Row form of live_exact: the subscriber receives a batch iff some row is
   wanted; the batch has one row per wanted index, and its k-th row carries, in
   every column, the cell of the k-th wanted original row. *)
Theorem live_rows_exact : forall sel b merge,
  wf_batch b = true -> ts_col_ok b = true -> clause_ok sel b ->
  match apply (from_sql sel) b merge with
  | Some fb => b_rows fb = length (wanted sel b merge) /\ wanted sel b merge <> [] /\
               forall name k, cell fb name k =
                              match nth_error (wanted sel b merge) k with
                              | Some j => cell b name j
                              | None => None
                              end
  | None => wanted sel b merge = []
  end.
Proof.
  intros sel b merge Hwf Hts Hok. rewrite (live_exact sel b merge Hwf Hts Hok).
  assert (Hk : kept_indices (keep_mask sel b merge) = wanted sel b merge) by apply kept_indices_map.
  unfold spec_apply. rewrite <- Hk, existsb_count_true, count_true_kept.
  destruct (Nat.eqb_spec (length (kept_indices (keep_mask sel b merge))) 0) as [Hz | Hnz]; cbn [negb].
  - apply length_zero_iff_nil. exact Hz.
  - split; [| split].
    + cbn [filter_batch b_rows]. apply count_true_kept.
    + intro Hnil. rewrite Hnil in Hnz. apply Hnz. reflexivity.
    + intros name k. apply filter_batch_cells; [exact Hwf |].
      unfold keep_mask. rewrite map_length, seq_length. reflexivity.
Qed.

Lemma str_eqb_eq : forall a b, str_eqb a b = true <-> a = b.
Proof.
  induction a as [| x a IH]; intros b; destruct b as [| y b]; cbn [str_eqb]; split; intro H;
    try reflexivity; try discriminate.
  - apply andb_true_iff in H as [H1 H2]. apply N.eqb_eq in H1. apply IH in H2. congruence.
  - injection H as -> ->. rewrite N.eqb_refl. apply IH. reflexivity.
Qed.

Lemma str_mem_in : forall x l, str_mem x l = true <-> In x l.
Proof.
  intros x l. unfold str_mem. rewrite existsb_exists. split.
  - intros [y [Hin He]]. apply str_eqb_eq in He. subst. exact Hin.
  - intros Hin. exists x. split; [exact Hin | apply str_eqb_eq; reflexivity].
Qed.

Lemma matches_and : forall fs m, matches (TAnd fs) m = forallb (fun g => matches g m) fs.
Proof.
  intros fs m. induction fs as [| g r IH]; [reflexivity |].
  cbn [forallb]. rewrite <- IH. reflexivity.
Qed.

Lemma matches_or : forall fs m, matches (TOr fs) m = existsb (fun g => matches g m) fs.
Proof.
  intros fs m. induction fs as [| g r IH]; [reflexivity |].
  cbn [existsb]. rewrite <- IH. reflexivity.
Qed.

Section TfilterInd.
  Variable Q : tfilter -> Prop.
  Hypothesis HAll : Q TAll.
  Hypothesis HShard : forall s, Q (TShard s).
  Hypothesis HTenant : forall t, Q (TTenant t).
  Hypothesis HMetrics : forall ms, Q (TMetrics ms).
  Hypothesis HAnd : forall fs, Forall Q fs -> Q (TAnd fs).
  Hypothesis HOr : forall fs, Forall Q fs -> Q (TOr fs).

  Fixpoint tfilter_nested_ind (f : tfilter) : Q f :=
    let fix go (l : list tfilter) : Forall Q l :=
      match l with
      | [] => Forall_nil Q
      | g :: r => Forall_cons g (tfilter_nested_ind g) (go r)
      end in
    match f with
    | TAll => HAll
    | TShard s => HShard s
    | TTenant t => HTenant t
    | TMetrics ms => HMetrics ms
    | TAnd fs => HAnd fs (go fs)
    | TOr fs => HOr fs (go fs)
    end.
End TfilterInd.

Lemma tsat_inv : forall m f,
  tsat m f <->
  match f with
  | TAll => True
  | TShard s => bm_shard m = s
  | TTenant t => bm_tenant m = t
  | TMetrics ms => exists x, In x (bm_metrics m) /\ In x ms
  | TAnd fs => forall g, In g fs -> tsat m g
  | TOr fs => exists g, In g fs /\ tsat m g
  end.
Proof.
  intros m f. split.
  - (* each constructor carries what its case asks for *)
    intros H. destruct H as [| | | ms x | | fs g]; [| | | exists x | | exists g]; auto.
  - destruct f; intros H.
    + apply ts_all.
    + apply ts_shard, H.
    + apply ts_tenant, H.
    + destruct H as [x [H1 H2]]. exact (ts_metrics m ms x H1 H2).
    + apply ts_and, H.
    + destruct H as [g [H1 H2]]. exact (ts_or m fs g H1 H2).
Qed.

(* TopicFilter::matches decides the declarative meaning, for every filter
   expression including nested And / Or lists (empty And = true, empty Or = false) *)
Theorem matches_tsat : forall m f, matches f m = true <-> tsat m f.
Proof.
  intros m f. induction f as [| s | t | ms | fs IH | fs IH] using tfilter_nested_ind;
    try rewrite Forall_forall in IH; rewrite tsat_inv.
  - (* TAll *) split; reflexivity || constructor.
  - (* TShard *) apply str_eqb_eq.
  - (* TTenant *) apply N.eqb_eq.
  - (* TMetrics *) cbn [matches]. rewrite existsb_exists.
    split; intros [x [Hin Hm]]; exists x; (split; [exact Hin | apply str_mem_in; exact Hm]).
  - (* TAnd *) rewrite matches_and, forallb_forall. split; intros H g Hg; apply (IH g Hg), H, Hg.
  - (* TOr *) rewrite matches_or, existsb_exists.
    split; intros [g [Hg H]]; exists g; (split; [exact Hg | apply (IH g Hg), H]).
Qed.

Definition conjuncts (f : tfilter) : list tfilter := match f with TAnd x => x | t => [t] end.

Lemma matches_conjuncts : forall f m, forallb (fun g => matches g m) (conjuncts f) = matches f m.
Proof.
  intros f m. destruct f; cbn [conjuncts forallb]; try apply andb_true_r. symmetry. apply matches_and.
Qed.

Lemma tf_and_conjuncts : forall a b, tf_and a b = TAnd (conjuncts a ++ conjuncts b).
Proof. intros a b. destruct a, b; reflexivity. Qed.

(* the builder TopicFilter::and means conjunction *)
Theorem tf_and_matches : forall a b m, matches (tf_and a b) m = (matches a m && matches b m)%bool.
Proof.
  intros a b m. rewrite tf_and_conjuncts, matches_and, forallb_app, !matches_conjuncts. reflexivity.
Qed.

Section TopicProofs.
  Variable P : Type.

  Lemma drain_filter : forall f (q : list (bmeta * P)),
    drain f q = map snd (filter (fun x => matches f (fst x)) q).
  Proof.
    intros f q. induction q as [| [m p] r IH]; [reflexivity |].
    cbn [drain filter fst]. destruct (matches f m); cbn [map snd]; rewrite IH; reflexivity.
  Qed.

  Lemma drain_app : forall f (a b : list (bmeta * P)), drain f (a ++ b) = drain f a ++ drain f b.
  Proof.
    intros f a b. rewrite !drain_filter, filter_app, map_app. reflexivity.
  Qed.

  (* FilteredReceiver::recv returns the first pending batch that matches and
     consumes everything before it *)
  Lemma recv_drain : forall f (q : list (bmeta * P)),
    drain f q = match recv f q with
                | (Some p, q') => p :: drain f q'
                | (None, q') => drain f q'
                end.
  Proof.
    intros f q. induction q as [| [m p] r IH]; [reflexivity |].
    cbn [drain recv]. destruct (matches f m); [reflexivity | exact IH].
  Qed.

  Lemma recv_none_empty : forall f (q q' : list (bmeta * P)), recv f q = (None, q') -> q' = [].
  Proof.
    intros f q. induction q as [| [m p] r IH]; intros q' H.
    - cbn [recv] in H. congruence.
    - cbn [recv] in H. destruct (matches f m); [discriminate | apply IH; exact H].
  Qed.

  Lemma tstep_total : forall f st (e : tevent P),
    snd (tstep f st e) ++ drain f (fst (tstep f st e)) =
    (snd st ++ drain f (fst st)) ++ drain f (match e with TSend m p => [(m, p)] | TRecv => [] end).
  Proof.
    intros f [q d] [m p |]; cbn [tstep fst snd].
    - (* TSend *) rewrite drain_app, app_assoc. reflexivity.
    - (* TRecv *) rewrite app_nil_r, (recv_drain f q).
      destruct (recv f q) as [[p |] q']; [cbn [fst snd]; rewrite <- app_assoc |]; reflexivity.
  Qed.

  (* Whatever the interleaving of sends and
     receive calls, a keeping-up subscriber ends up with exactly the payloads of
     the sent batches whose metadata satisfies the filter, in send order, each
     once (a `filter` of the send sequence). *)
  Theorem topic_exact : forall f (evs : list (tevent P)),
    delivered f evs = map snd (filter (fun x => matches f (fst x)) (sends evs)).
  Proof.
    intros f evs. rewrite <- drain_filter.
    exact (run_queue (drain f) eq_refl (drain_app f) (tstep_total f) evs ([], [])).
  Qed.
End TopicProofs.

(* column name "v" = [118] *)
Definition w_ts : str * column := (ts_name, CTs [Some 10; Some 20; Some 30]).
Definition w_batch_int : batch := mkBatch 3 [w_ts; ([118%N], CInt [Some 1; Some 2; Some 3])].
(* 1.0, 2.0, 3.0 *)
Definition w_batch_float : batch :=
  mkBatch 3 [w_ts; ([118%N], CFloat [Some 4607182418800017408; Some 4611686018427387904; Some 4613937818241073152])].

(* open known class: `v = 'x'` against an Int64 column is skipped by the live
   filter, all three rows are delivered; no row satisfies the clause *)
Definition w_mismatch : sexpr := EBin BEq (EIdent [118%N]) (EStr [120%N]).

Lemma refuted_type_mismatch :
  exists w b merge,
    supported w = true /\ cols_present w b = true /\ wf_batch b = true /\ ts_col_ok b = true /\
    known_class (Some w) b = true /\
    apply (from_sql (Some w)) b merge = Some b /\ spec_apply (Some w) b merge = None.
Proof.
  exists w_mismatch, w_batch_int, 0. vm_compute. repeat split; reflexivity.
Qed.

(* regression witness of the fixed OR flattening: `v = 1.0 OR V = 2.0` (the
   second identifier in upper case, [86]) on 1.0, 2.0, 3.0 delivers the first
   two rows (the flattened filter delivered none) *)
Definition w_or : sexpr :=
  EBin BOr (EBin BEq (EIdent [118%N]) (ENum (NTDec 4607182418800017408)))
           (EBin BEq (EIdent [86%N]) (ENum (NTDec 4611686018427387904))).

Lemma or_witness :
  clause_ok (Some w_or) w_batch_float /\
  apply (from_sql (Some w_or)) w_batch_float 0 =
  Some (mkBatch 2 [(ts_name, CTs [Some 10; Some 20]);
                   ([118%N], CFloat [Some 4607182418800017408; Some 4611686018427387904])]).
Proof. vm_compute. repeat split; reflexivity. Qed.

(* non-vacuity of live_exact with a reversed operand, nesting and the merge point:
   (2 <= v AND v <> 3) OR v = 1, merge = 20 -> only the row (20, 2) *)
Definition w_nested : sexpr :=
  EBin BOr (ENested (EBin BAnd (EBin BLe (ENum (NTInt 2)) (EIdent [118%N]))
                               (EBin BNe (EIdent [118%N]) (ENum (NTInt 3)))))
           (EBin BEq (EIdent [118%N]) (ENum (NTInt 1))).

Lemma nested_witness :
  clause_ok (Some w_nested) w_batch_int /\ wf_batch w_batch_int = true /\ ts_col_ok w_batch_int = true /\
  apply (from_sql (Some w_nested)) w_batch_int 20 =
  Some (mkBatch 1 [(ts_name, CTs [Some 20]); ([118%N], CInt [Some 2])]).
Proof. vm_compute. repeat split; reflexivity. Qed.

(* topic filter witness: And [Tenant 1; Or [Shard "a"; Metrics ["m"]]] *)
Definition w_tf : tfilter := TAnd [TTenant 1; TOr [TShard [97%N]; TMetrics [[109%N]]]].
Definition w_evs : list (tevent nat) :=
  [TSend (mkMeta [97%N] 1 []) 1%nat; TRecv; TRecv;
   TSend (mkMeta [98%N] 1 [[109%N]; [110%N]]) 2%nat;
   TSend (mkMeta [97%N] 2 [[109%N]]) 3%nat;
   TSend (mkMeta [98%N] 1 [[110%N]]) 4%nat;
   TSend (mkMeta [97%N] 1 [[109%N]]) 5%nat; TRecv].

Lemma topic_witness : delivered w_tf w_evs = [1%nat; 2%nat; 5%nat].
Proof. vm_compute. reflexivity. Qed.
