(* Proofs/CatalogProofs.v — exactness of the time-range lookup of both catalog
   backends for every history (C07), plus the well-formedness invariant of the
   object-store catalog that C02 re-uses.

   Both backends keep a live map (path -> interval) and a time index.  The
   invariant [index_inv] speaks of the live map only as a function, so each
   operation is treated once (inv_register, inv_delete, inv_same) and the two
   backends only have to say what their live map is after the operation. *)
From CS Require Import Base.Prelude Base.AList Base.ListFacts Model.Catalog.
From CSGen Require Import Consts.
Open Scope Z_scope.

Lemma memZ_In x l : memZ x l = true <-> In x l.
Proof.
  induction l as [|y r IH]; simpl; [split; [discriminate|tauto]|].
  rewrite orb_true_iff, IH, Z.eqb_eq. split; intros [H|H]; auto.
Qed.

Lemma bucketw_mono w a b : 0 < w -> a <= b -> bucketw w a <= bucketw w b.
Proof.
  intros Hw Hab. unfold bucketw.
  apply Z.mul_le_mono_nonneg_r; [lia|]. apply Z.quot_le_mono; lia.
Qed.

Lemma in_buckets_between w mn mx t :
  0 < w -> mn <= t <= mx ->
  In (bucketw w t) (buckets_between w (bucketw w mn) (bucketw w mx)).
Proof.
  intros Hw [H1 H2]. unfold buckets_between, bucketw.
  set (q0 := Z.quot mn w). set (q := Z.quot t w). set (q1 := Z.quot mx w).
  assert (Hq0 : q0 <= q) by (apply Z.quot_le_mono; lia).
  assert (Hq1 : q <= q1) by (apply Z.quot_le_mono; lia).
  replace (q0 * w <=? q1 * w) with true by (symmetry; apply Z.leb_le; nia).
  replace (q1 * w - q0 * w) with ((q1 - q0) * w) by ring.
  rewrite Z.quot_mul by lia.
  apply in_map_iff. exists (Z.to_nat (q - q0)). split.
  - rewrite Z2Nat.id by lia. ring.
  - apply in_seq. lia.
Qed.

Definition ti_has (ti : tindex) (b : Z) (p : path) : Prop :=
  exists l, aget Z.eqb b ti = Some l /\ In p l.

Lemma ti_has_range ti b p sb eb :
  ti_has ti b p -> sb <= b <= eb -> In p (ti_range sb eb ti).
Proof.
  intros [l [Hg Hin]] [H1 H2]. unfold ti_range. apply in_flat_map.
  exists (b, l). split; [apply (aget_In Z.eqb Zeqb_spec); exact Hg|].
  simpl. rewrite (proj2 (Z.leb_le sb b) H1), (proj2 (Z.leb_le b eb) H2). exact Hin.
Qed.

Lemma ti_push_eq b p ti :
  ti_push b p ti = aset Z.eqb b (match aget Z.eqb b ti with Some l => l ++ [p] | None => [p] end) ti.
Proof. unfold ti_push. destruct (aget Z.eqb b ti); reflexivity. Qed.

Lemma aget_ti_push b p ti b' :
  aget Z.eqb b' (ti_push b p ti)
  = if Z.eqb b' b then Some (match aget Z.eqb b ti with Some l => l ++ [p] | None => [p] end)
    else aget Z.eqb b' ti.
Proof. rewrite ti_push_eq. apply (aget_aset_if Z.eqb Zeqb_spec). Qed.

Lemma ti_push_has ti b p b' q :
  ti_has ti b' q \/ (b' = b /\ q = p) -> ti_has (ti_push b p ti) b' q.
Proof.
  intros H. unfold ti_has. rewrite aget_ti_push. destruct (Z.eqb b' b) eqn:E.
  - apply Z.eqb_eq in E; subst b'. eexists. split; [reflexivity|].
    destruct H as [[l [-> Hin]]|[_ ->]]; [apply in_or_app; left; exact Hin|].
    destruct (aget Z.eqb b ti); [apply in_or_app; right|]; left; reflexivity.
  - destruct H as [H|[-> _]]; [exact H|]. rewrite Z.eqb_refl in E. discriminate.
Qed.

Lemma ti_push_all_has bs p b' q : forall ti,
  ti_has ti b' q \/ (In b' bs /\ q = p) -> ti_has (ti_push_all bs p ti) b' q.
Proof.
  unfold ti_push_all. induction bs as [|b r IH]; simpl; intros ti H; [tauto|].
  apply IH. destruct H as [H|[[->|Hin] ->]].
  - left. apply ti_push_has. left. exact H.
  - left. apply ti_push_has. right. auto.
  - right. auto.
Qed.

Lemma ti_has_map (f : Z -> list path -> list path) ti b q :
  (forall l, In q l -> In q (f b l)) ->
  ti_has ti b q -> ti_has (map (fun '(b0, l) => (b0, f b0 l)) ti) b q.
Proof.
  intros Hf [l [Hg Hin]]. exists (f b l).
  rewrite (aget_map_vals Z.eqb Zeqb_spec _ f (fun _ _ => eq_refl)), Hg. auto.
Qed.

Lemma ti_retain_all_has ti p b q : q <> p -> ti_has ti b q -> ti_has (ti_retain_all p ti) b q.
Proof.
  intros Hn. apply (ti_has_map (fun _ l => removeN p l)).
  intros l Hin. apply In_removeN. auto.
Qed.

Lemma ti_retain_in_eq bs p ti :
  ti_retain_in bs p ti = map (fun '(b, l) => (b, if memZ b bs then removeN p l else l)) ti.
Proof. apply map_ext. intros [b l]. destruct (memZ b bs); reflexivity. Qed.

Lemma ti_retain_in_has bs ti p b q : q <> p -> ti_has ti b q -> ti_has (ti_retain_in bs p ti) b q.
Proof.
  intros Hn. rewrite ti_retain_in_eq.
  apply (ti_has_map (fun b0 l => if memZ b0 bs then removeN p l else l)).
  intros l Hin. destruct (memZ b bs); [apply In_removeN|]; auto.
Qed.

Lemma aget_drop_empty ti b l :
  aget Z.eqb b ti = Some l -> l <> [] -> aget Z.eqb b (ti_drop_empty ti) = Some l.
Proof.
  unfold ti_drop_empty. intros Hg Hne.
  induction ti as [|[b0 l0] r IH]; simpl in *; [discriminate|].
  destruct (Z.eqb b b0) eqn:E.
  - inversion Hg; subst l0. destruct l; [contradiction|]. simpl. rewrite E. reflexivity.
  - destruct l0; simpl; [|rewrite E]; exact (IH Hg).
Qed.

Lemma ti_drop_empty_has ti b q : ti_has ti b q -> ti_has (ti_drop_empty ti) b q.
Proof.
  intros [l [Hg Hin]]. exists l. split; [|exact Hin].
  apply aget_drop_empty; [exact Hg|]. intros ->. contradiction.
Qed.

(* what one candidate path adds to the answer of the scan the first time it
   is met (scan_cons): itself, when it is live and overlaps *)
Definition hit (look : path -> option cmeta) (s e : Z) (p : path) : list (path * cmeta) :=
  match look p with
  | Some m => if overlaps (m_min m) (m_max m) s e then [(p, m)] else []
  | None => []
  end.

Lemma in_hit look s e x p m :
  In (p, m) (hit look s e x) <->
  x = p /\ look p = Some m /\ overlaps (m_min m) (m_max m) s e = true.
Proof.
  unfold hit.
  destruct (look x) as [mx|] eqn:El; [destruct (overlaps (m_min mx) (m_max mx) s e) eqn:Eo|]; simpl.
  - split; [intros [H|[]]; inversion H; subst; auto | intros [-> [H _]]; left; congruence].
  - split; [tauto | intros [-> [H Ho]]; congruence].
  - split; [tauto | intros [-> [H _]]; congruence].
Qed.

Lemma scan_cons look s e seen x r :
  scan look s e seen (x :: r)
  = if memN x seen then scan look s e seen r else hit look s e x ++ scan look s e (x :: seen) r.
Proof.
  simpl. unfold hit. destruct (memN x seen); [reflexivity|].
  destruct (look x) as [mx|]; [destruct (overlaps (m_min mx) (m_max mx) s e)|]; reflexivity.
Qed.

Lemma scan_In look s e seen ps p m :
  In (p, m) (scan look s e seen ps) <->
  In p ps /\ ~ In p seen /\ look p = Some m /\ overlaps (m_min m) (m_max m) s e = true.
Proof.
  revert seen. induction ps as [|x r IH]; intros seen; [simpl; tauto|].
  rewrite scan_cons. destruct (memN x seen) eqn:Em.
  - apply memN_In in Em. rewrite IH. simpl. destruct (N.eq_dec x p) as [->|Hn]; tauto.
  - apply memN_false in Em. rewrite in_app_iff, in_hit, IH. simpl.
    destruct (N.eq_dec x p) as [->|Hn]; tauto.
Qed.

Lemma scan_nodup look s e seen ps : NoDup (map fst (scan look s e seen ps)).
Proof.
  revert seen. induction ps as [|x r IH]; intros seen; [constructor|].
  rewrite scan_cons. destruct (memN x seen); [apply IH|]. unfold hit.
  destruct (look x) as [mx|]; [destruct (overlaps (m_min mx) (m_max mx) s e)|]; simpl; try apply IH.
  constructor; [|apply IH].
  rewrite in_map_iff. intros [[p m] [Hp Hin]]. simpl in Hp; subst p.
  apply scan_In in Hin. simpl in Hin. tauto.
Qed.

(* every live chunk is listed under every bucket of its interval.  Only this
   direction holds: entries under the buckets of an interval a path was
   registered with earlier stay behind (no backend removes them on
   re-registration, the in-memory delete cleans the current interval only).
   The scan looks every candidate up in the live map, so a stale entry costs a
   lookup and nothing else *)
Definition indexed (w : Z) (look : path -> option cmeta) (ti : tindex) : Prop :=
  forall p m, look p = Some m ->
    forall b, In b (buckets_between w (bucketw w (m_min m)) (bucketw w (m_max m))) -> ti_has ti b p.

Definition wf_meta (look : path -> option cmeta) : Prop :=
  forall p m, look p = Some m -> m_min m <= m_max m.

(* the live map read as a function is the plain map of the specification *)
Definition agrees (look : path -> option cmeta) (sp : spec) : Prop :=
  NoDup (map fst sp) /\ forall p, look p = aget N.eqb p sp.

Definition exact_answer (r : outcome (list (path * cmeta))) (sp : spec) (s e : Z) : Prop :=
  match r with
  | Done l => NoDup (map fst l) /\ forall p m, In (p, m) l <-> In (p, m) (spec_get sp s e)
  | _ => False
  end.

Lemma In_spec_get sp s e p m :
  In (p, m) (spec_get sp s e) <-> s <= e /\ In (p, m) sp /\ overlaps (m_min m) (m_max m) s e = true.
Proof.
  unfold spec_get. destruct (Z.ltb_spec e s); [simpl; lia|]. rewrite filter_In. tauto.
Qed.

Lemma scan_exact w look ti sp s e :
  0 < w -> indexed w look ti -> wf_meta look -> agrees look sp ->
  exact_answer (if e <? s then Done []
                else Done (scan look s e [] (ti_range (bucketw w s) (bucketw w e) ti))) sp s e.
Proof.
  intros Hw Hidx Hwf [Hnd Hag]. unfold exact_answer. destruct (Z.ltb_spec e s) as [E|E].
  - split; [constructor|]. intros p m. rewrite In_spec_get. simpl. lia.
  - split; [apply scan_nodup|]. intros p m.
    rewrite scan_In, In_spec_get. split.
    + intros [_ [_ [Hl Ho]]]. split; [exact E|]. split; [|exact Ho].
      apply (aget_In N.eqb Neqb_spec). rewrite <- Hag. exact Hl.
    + intros [_ [Hin Ho]].
      assert (Hl : look p = Some m)
        by (rewrite Hag; apply (In_aget_nodup N.eqb Neqb_spec); assumption).
      split; [|simpl; tauto].
      (* t = max (m_min m) s lies in the chunk's interval and in [s, e]: its
         bucket is indexed for p and is inside the range that is read *)
      unfold overlaps in Ho. apply andb_true_iff in Ho. destruct Ho as [Ho1 Ho2].
      apply Z.leb_le in Ho1. apply Z.geb_le in Ho2.
      pose proof (Hwf _ _ Hl) as Hmm.
      apply (ti_has_range ti (bucketw w (Z.max (m_min m) s))).
      * apply (Hidx _ _ Hl). apply in_buckets_between; lia.
      * split; apply bucketw_mono; lia.
Qed.

Definition widths_agree : Prop :=
  0 < Consts.S3_GET_BUCKET_NANOS /\
  Consts.S3_REGISTER_BUCKET_NANOS = Consts.S3_GET_BUCKET_NANOS /\
  Consts.LOCAL_BUCKET_NANOS = Consts.S3_GET_BUCKET_NANOS /\
  Consts.LOCAL_STEP_NANOS = Consts.S3_GET_BUCKET_NANOS.

(* discharged by computation from the constants extracted from the Rust code *)
Lemma widths_agree_holds : widths_agree.
Proof. unfold widths_agree. repeat split; reflexivity. Qed.

Definition W : Z := Consts.S3_GET_BUCKET_NANOS.

Lemma W_pos : 0 < W.
Proof. exact (proj1 widths_agree_holds). Qed.
Lemma width_register : Consts.S3_REGISTER_BUCKET_NANOS = W.
Proof. exact (proj1 (proj2 widths_agree_holds)). Qed.
Lemma width_local : Consts.LOCAL_BUCKET_NANOS = W.
Proof. exact (proj1 (proj2 (proj2 widths_agree_holds))). Qed.
Lemma width_local_step : Consts.LOCAL_STEP_NANOS = W.
Proof. exact (proj2 (proj2 (proj2 widths_agree_holds))). Qed.

Definition index_inv (look : path -> option cmeta) (ti : tindex) (sp : spec) : Prop :=
  indexed W look ti /\ wf_meta look /\ agrees look sp.

Lemma inv_indexed {look ti sp} : index_inv look ti sp -> indexed W look ti.
Proof. intros H. exact (proj1 H). Qed.
Lemma inv_wf {look ti sp} : index_inv look ti sp -> wf_meta look.
Proof. intros H. exact (proj1 (proj2 H)). Qed.
Lemma inv_nodup {look ti sp} : index_inv look ti sp -> NoDup (map fst sp).
Proof. intros H. exact (proj1 (proj2 (proj2 H))). Qed.
Lemma inv_look {look ti sp} : index_inv look ti sp -> forall p, look p = aget N.eqb p sp.
Proof. intros H. exact (proj2 (proj2 (proj2 H))). Qed.

Lemma inv_amem {look ti sp} (H : index_inv look ti sp) p :
  amem N.eqb p sp = match look p with Some _ => true | None => false end.
Proof. unfold amem. rewrite <- (inv_look H). reflexivity. Qed.

Lemma inv_intro look ti sp :
  indexed W look ti -> wf_meta look -> NoDup (map fst sp) -> (forall p, look p = aget N.eqb p sp) ->
  index_inv look ti sp.
Proof. intros Hi Hw Hnd Hag. exact (conj Hi (conj Hw (conj Hnd Hag))). Qed.

Lemma inv_empty : index_inv (fun _ => None) [] [].
Proof. apply inv_intro; [intros ? ? H; discriminate | intros ? ? H; discriminate | constructor | reflexivity]. Qed.

Lemma inv_register look look' ti sp p m :
  (forall q, look' q = if N.eqb q p then Some m else look q) ->
  m_min m <= m_max m -> index_inv look ti sp ->
  index_inv look' (ti_push_all (buckets_between W (bucketw W (m_min m)) (bucketw W (m_max m))) p ti)
            (aset N.eqb p m sp).
Proof.
  intros Hlk Hmm H. apply inv_intro.
  - (* indexed *)
    intros q mq Hq b Hb. rewrite Hlk in Hq. destruct (N.eqb q p) eqn:E.
    + apply N.eqb_eq in E; subst q. inversion Hq; subst mq. apply ti_push_all_has. right. auto.
    + apply ti_push_all_has. left. exact (inv_indexed H _ _ Hq _ Hb).
  - (* wf_meta *)
    intros q mq Hq. rewrite Hlk in Hq.
    destruct (N.eqb q p); [inversion Hq; subst; exact Hmm|exact (inv_wf H _ _ Hq)].
  - apply nodup_aset; [exact Neqb_spec|exact (inv_nodup H)].
  - intros q. rewrite Hlk, (aget_aset_if N.eqb Neqb_spec).
    destruct (N.eqb q p); [reflexivity|apply (inv_look H)].
Qed.

(* the index may change in any way that keeps the other paths *)
Lemma inv_delete look look' ti ti' sp p :
  (forall q, look' q = if N.eqb q p then None else look q) ->
  (forall b q, q <> p -> ti_has ti b q -> ti_has ti' b q) ->
  index_inv look ti sp -> index_inv look' ti' (adel N.eqb p sp).
Proof.
  intros Hlk Hti H. apply inv_intro.
  - (* indexed *)
    intros q m Hq b Hb. rewrite Hlk in Hq. destruct (N.eqb q p) eqn:E; [discriminate|].
    apply N.eqb_neq in E. apply Hti; [exact E|]. exact (inv_indexed H _ _ Hq _ Hb).
  - (* wf_meta *)
    intros q m Hq. rewrite Hlk in Hq. destruct (N.eqb q p); [discriminate|]. exact (inv_wf H _ _ Hq).
  - apply nodup_adel. exact (inv_nodup H).
  - intros q. rewrite Hlk, (aget_adel_if N.eqb Neqb_spec).
    destruct (N.eqb q p); [reflexivity|apply (inv_look H)].
Qed.

Lemma inv_same look look' ti ti' sp :
  (forall q, look' q = look q) -> (forall b q, ti_has ti b q -> ti_has ti' b q) ->
  index_inv look ti sp -> index_inv look' ti' sp.
Proof.
  intros Hlk Hti H. apply inv_intro.
  - intros q m Hq b Hb. rewrite Hlk in Hq. apply Hti. exact (inv_indexed H _ _ Hq _ Hb).
  - intros q m Hq. rewrite Hlk in Hq. exact (inv_wf H _ _ Hq).
  - exact (inv_nodup H).
  - intros q. rewrite Hlk. apply (inv_look H).
Qed.

Lemma get_exact look ti sp s e :
  index_inv look ti sp ->
  exact_answer (if e <? s then Done []
                else Done (scan look s e [] (ti_range (bucketw W s) (bucketw W e) ti))) sp s e.
Proof.
  intros H. apply scan_exact; [exact W_pos|exact (inv_indexed H)|exact (inv_wf H)|exact (proj2 (proj2 H))].
Qed.

Definition reg_wf (o : cop) : Prop :=
  match o with ORegister _ m => m_min m <= m_max m | _ => True end.

Definition hist_ok (h : list cop) : Prop :=
  Forall (fun o => match o with ORegister _ m => m_min m <= m_max m | _ => True end) h.

(* hist_ok is Forall reg_wf with reg_wf written out *)
Lemma hist_ok_In h o : hist_ok h -> In o h -> reg_wf o.
Proof. intros Hok. exact (proj1 (Forall_forall reg_wf h) Hok o). Qed.

Definition s3_look (c : cat) : path -> option cmeta :=
  fun p => option_map e_meta (aget N.eqb p (c_chunks c)).

Definition s3_inv (c : cat) (sp : spec) : Prop := index_inv (s3_look c) (c_tindex c) sp.

(* one deletion step (without the final drop of empty buckets) *)
Definition s3_del1 (c : cat) (p : path) : cat :=
  mkCat (adel N.eqb p (c_chunks c)) (ti_retain_all p (c_tindex c)).

Lemma s3_del1_inv c sp p : s3_inv c sp -> s3_inv (s3_del1 c p) (adel N.eqb p sp).
Proof.
  apply inv_delete.
  - intros q. unfold s3_look; simpl. rewrite (aget_adel_if N.eqb Neqb_spec).
    destruct (N.eqb q p); reflexivity.
  - intros b q. apply ti_retain_all_has.
Qed.

Lemma s3_drop_inv c sp : s3_inv c sp -> s3_inv (mkCat (c_chunks c) (ti_drop_empty (c_tindex c))) sp.
Proof. apply inv_same; [reflexivity|]. intros b q. apply ti_drop_empty_has. Qed.

Lemma s3_register_inv c sp p m :
  m_min m <= m_max m -> s3_inv c sp -> s3_inv (s3_register c p m) (aset N.eqb p m sp).
Proof.
  intros Hmm. unfold s3_register. cbv zeta. rewrite width_register. apply inv_register; [|exact Hmm].
  intros q. unfold s3_look; simpl. rewrite (aget_aset_if N.eqb Neqb_spec).
  destruct (N.eqb q p); reflexivity.
Qed.

Lemma s3_delete_inv c sp p : s3_inv c sp -> s3_inv (s3_delete c p) (adel N.eqb p sp).
Proof.
  intros H. apply (s3_drop_inv (s3_del1 c p)). apply s3_del1_inv. exact H.
Qed.

Lemma s3_complete_eq c srcs tgt :
  s3_complete c srcs tgt =
  let c1 := fold_left s3_del1 srcs c in
  match aget N.eqb tgt (c_chunks c1) with
  | Some e => Some (mkCat (aset N.eqb tgt (mkEntry (e_meta e)
                 (max_level (fun p => option_map e_level (aget N.eqb p (c_chunks c))) srcs + 1)%N) (c_chunks c1))
                 (ti_drop_empty (c_tindex c1)))
  | None => None
  end.
Proof. reflexivity. Qed.

Lemma s3_relevel_inv c sp tgt e lvl :
  aget N.eqb tgt (c_chunks c) = Some e -> s3_inv c sp ->
  s3_inv (mkCat (aset N.eqb tgt (mkEntry (e_meta e) lvl) (c_chunks c)) (c_tindex c)) sp.
Proof.
  intros Hg. apply inv_same; [|intros b q H; exact H].
  intros q. unfold s3_look; simpl. rewrite (aget_aset_if N.eqb Neqb_spec).
  destruct (N.eqb q tgt) eqn:E; [|reflexivity].
  apply N.eqb_eq in E; subst q. rewrite Hg. reflexivity.
Qed.

Lemma s3_apply_inv c sp o :
  reg_wf o -> s3_inv c sp -> s3_inv (fst (s3_apply c o)) (spec_apply sp o).
Proof.
  intros Hok H. destruct o as [p m|p|srcs tgt]; simpl.
  - apply s3_register_inv; assumption.
  - apply s3_delete_inv; assumption.
  - rewrite s3_complete_eq. cbv zeta.
    set (c1 := fold_left s3_del1 srcs c).
    set (sp1 := fold_left (fun s p => adel N.eqb p s) srcs sp).
    assert (H1 : s3_inv c1 sp1)
      by (apply (fold_left_rel s3_del1 _ s3_inv); [intros c' sp' p _; apply s3_del1_inv|exact H]).
    rewrite (inv_amem H1 tgt). unfold s3_look.
    destruct (aget N.eqb tgt (c_chunks c1)) as [e|] eqn:Eg; simpl; [|exact H].
    apply (s3_relevel_inv (mkCat (c_chunks c1) (ti_drop_empty (c_tindex c1))) sp1 tgt e); [exact Eg|].
    apply s3_drop_inv. exact H1.
Qed.

Lemma s3_empty_inv : s3_inv cat_empty [].
Proof. exact inv_empty. Qed.

Lemma s3_run_inv h : hist_ok h -> s3_inv (s3_run h) (spec_run h).
Proof.
  intros Hok.
  apply (fold_left_rel (fun c o => fst (s3_apply c o)) spec_apply s3_inv); [|exact s3_empty_inv].
  intros c sp o Ho. apply s3_apply_inv. exact (hist_ok_In h o Hok Ho).
Qed.

Definition local_look (c : lcat) : path -> option cmeta :=
  fun p => aget N.eqb p (l_chunks c).

Definition local_inv (c : lcat) (sp : spec) : Prop := index_inv (local_look c) (l_tindex c) sp.

Lemma local_delete_inv c sp p : local_inv c sp -> local_inv (local_delete c p) (adel N.eqb p sp).
Proof.
  unfold local_delete. destruct (aget N.eqb p (l_chunks c)) as [m|] eqn:Eg; apply inv_delete.
  - (* p is live; the live map *)
    intros q. apply (aget_adel_if N.eqb Neqb_spec).
  - (* p is live; the index *)
    intros b q. apply ti_retain_in_has.
  - (* nothing to delete: the live map already answers None for p *)
    intros q. unfold local_look; simpl. destruct (N.eqb q p) eqn:E; [|reflexivity].
    apply N.eqb_eq in E; subst q. exact Eg.
  - (* nothing to delete; the index is untouched *)
    intros b q _ H. exact H.
Qed.

Lemma local_register_inv c sp p m :
  m_min m <= m_max m -> local_inv c sp -> local_inv (local_register c p m) (aset N.eqb p m sp).
Proof.
  intros Hmm. unfold local_register. cbv zeta. rewrite width_local, width_local_step. apply inv_register; [|exact Hmm].
  intros q. apply (aget_aset_if N.eqb Neqb_spec).
Qed.

Lemma local_apply_inv c sp o :
  reg_wf o -> local_inv c sp -> local_inv (fst (local_apply c o)) (spec_apply sp o).
Proof.
  intros Hok H. destruct o as [p m|p|srcs tgt]; simpl.
  - apply local_register_inv; assumption.
  - apply local_delete_inv; assumption.
  - unfold local_complete.
    set (c1 := fold_left local_delete srcs c).
    set (sp1 := fold_left (fun s p => adel N.eqb p s) srcs sp).
    assert (H1 : local_inv c1 sp1)
      by (apply (fold_left_rel local_delete _ local_inv); [intros c' sp' p _; apply local_delete_inv|exact H]).
    rewrite (inv_amem H1 tgt). unfold local_look.
    destruct (aget N.eqb tgt (l_chunks c1)); simpl; [exact H1|exact H].
Qed.

Lemma local_run_inv h : hist_ok h -> local_inv (local_run h) (spec_run h).
Proof.
  intros Hok.
  apply (fold_left_rel (fun c o => fst (local_apply c o)) spec_apply local_inv); [|exact inv_empty].
  intros c sp o Ho. apply local_apply_inv. exact (hist_ok_In h o Hok Ho).
Qed.

Theorem s3_get_exact h s e : hist_ok h -> exact_answer (s3_get (s3_run h) s e) (spec_run h) s e.
Proof. intros Hok. apply get_exact, (s3_run_inv h Hok). Qed.

Theorem local_get_exact h s e : hist_ok h -> exact_answer (local_get (local_run h) s e) (spec_run h) s e.
Proof.
  intros Hok. unfold local_get. rewrite width_local. apply get_exact, (local_run_inv h Hok).
Qed.

Theorem backends_agree h s e : hist_ok h ->
  match s3_get (s3_run h) s e, local_get (local_run h) s e with
  | Done a, Done b => forall p m, In (p, m) a <-> In (p, m) b
  | _, _ => False
  end.
Proof.
  intros Hok. pose proof (s3_get_exact h s e Hok) as A. pose proof (local_get_exact h s e Hok) as B.
  unfold exact_answer in *.
  destruct (s3_get (s3_run h) s e); try contradiction.
  destruct (local_get (local_run h) s e); try contradiction.
  destruct A as [_ A]. destruct B as [_ B]. intros p m. rewrite A, B. tauto.
Qed.

(* the chunk maps themselves, which get_chunk looks up and list_chunks
   (s3_list, local_list) enumerates, agree with the specification key by key *)
Theorem s3_list_exact h p : hist_ok h ->
  option_map e_meta (aget N.eqb p (c_chunks (s3_run h))) = aget N.eqb p (spec_run h).
Proof. intros Hok. apply (inv_look (s3_run_inv h Hok)). Qed.

Theorem local_list_exact h p : hist_ok h ->
  aget N.eqb p (l_chunks (local_run h)) = aget N.eqb p (spec_run h).
Proof. intros Hok. apply (inv_look (local_run_inv h Hok)). Qed.

Lemma spec_run_nodup h : hist_ok h -> NoDup (map fst (spec_run h)).
Proof. intros Hok. exact (inv_nodup (s3_run_inv h Hok)). Qed.

(* every path the object-store catalog lists is indexed under all buckets of
   its interval: every version is well-formed (used by C02) *)
Definition cat_wf (c : cat) : Prop := indexed W (s3_look c) (c_tindex c).

Theorem s3_run_wf h : hist_ok h -> cat_wf (s3_run h).
Proof. intros Hok. exact (inv_indexed (s3_run_inv h Hok)). Qed.

(* non-vacuity: a concrete history meets the hypothesis and gives a non-empty answer *)
Example c07_nonvacuous :
  let h := [ORegister 1%N (mkMeta 0 (2 * W) 10%N 100%N); ORegister 2%N (mkMeta (-5) (-1) 1%N 1%N);
            ORegister 1%N (mkMeta (3 * W) (3 * W + 5) 10%N 100%N); ODelete 2%N;
            ORegister 3%N (mkMeta (W - 1) W 2%N 2%N); OComplete [3%N] 1%N] in
  hist_ok h /\ s3_get (s3_run h) (3 * W + 5) (4 * W) = Done [(1%N, mkMeta (3 * W) (3 * W + 5) 10%N 100%N)]
  /\ local_get (local_run h) (3 * W + 5) (4 * W) = Done [(1%N, mkMeta (3 * W) (3 * W + 5) 10%N 100%N)].
Proof.
  split; [|split; vm_compute; reflexivity].
  unfold hist_ok. repeat constructor; vm_compute; discriminate.
Qed.
