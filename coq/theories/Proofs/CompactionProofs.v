(* Proofs/CompactionProofs.v — C20: candidate groups are disjoint and
   single-level, levels only move up, repeated compaction cycles converge.
   The cycle is analysed once, over an abstract backend whose register /
   complete pair acts on the catalog's rows as [merged_rows] says: every pass
   leaves a well-formed later state whose measure (2 per chunk, 1 more per
   level-0 chunk) has dropped by the number of merges ([advance]).  The two
   backends of Model/Catalog.v meet that description. *)
From Coq Require Import Permutation.
From CS Require Import Base.Prelude Base.AList Base.ListFacts Model.Catalog Proofs.CatalogProofs Model.Compaction.
From CSGen Require Import Consts.
Open Scope N_scope.

(* Registering a key the list does not have and then deleting the keys [srcs]
   one after the other (a filter, by [fold_adel_filter]) gives [merged_alist]. *)
Section AListMore.
  Context {V : Type}.

  Definition keep_not (srcs : list path) (kv : N * V) : bool := negb (memN (fst kv) srcs).

  Lemma aget_none_keys k (l : list (N * V)) : ~ In k (map fst l) -> aget N.eqb k l = None.
  Proof. apply (aget_none_notin N.eqb Neqb_spec). Qed.

  (* what registering [t] and then completing the compaction of [srcs] into
     [t] leaves of a map that did not know [t]: the sources go, [t] is last *)
  Definition merged_alist (srcs : list path) (t : path) (v : V) (l : list (N * V)) : list (N * V) :=
    filter (keep_not srcs) l ++ [(t, v)].

  Lemma fold_adel_aset srcs t v (l : list (N * V)) :
    ~ In t (map fst l) -> ~ In t srcs ->
    fold_left (fun l p => adel N.eqb p l) srcs (aset N.eqb t v l) = merged_alist srcs t v l.
  Proof.
    intros Ht Hs. rewrite (aset_absent N.eqb Neqb_spec _ _ _ Ht), fold_adel_filter, filter_app.
    cbn [filter fst]. rewrite (proj2 (memN_false t srcs) Hs). reflexivity.
  Qed.

  Lemma merged_alist_aset srcs t v (l : list (N * V)) :
    ~ In t (map fst l) -> merged_alist srcs t v l = aset N.eqb t v (filter (keep_not srcs) l).
  Proof.
    intros Ht. symmetry. apply (aset_absent N.eqb Neqb_spec).
    intros Hc. exact (Ht (incl_map fst (incl_filter _ l) _ Hc)).
  Qed.

  Lemma aget_merged_new srcs t v (l : list (N * V)) :
    ~ In t (map fst l) -> aget N.eqb t (merged_alist srcs t v l) = Some v.
  Proof. intros Ht. rewrite (merged_alist_aset _ _ _ _ Ht). apply (aget_aset_same N.eqb Neqb_spec). Qed.

  Lemma aget_merged_old srcs t v (l : list (N * V)) k :
    ~ In k srcs -> k <> t -> aget N.eqb k (merged_alist srcs t v l) = aget N.eqb k l.
  Proof.
    intros Hs Hn. unfold merged_alist. induction l as [|[k' v'] r IH]; simpl.
    - rewrite (proj2 (N.eqb_neq k t) Hn). reflexivity.
    - unfold keep_not at 1. simpl. destruct (N.eqb k k') eqn:E.
      + apply N.eqb_eq in E. subst k'. rewrite (proj2 (memN_false k srcs) Hs). simpl.
        rewrite N.eqb_refl. reflexivity.
      + destruct (memN k' srcs); simpl; [|rewrite E]; exact IH.
  Qed.

  Lemma aset_merged srcs t v v' (l : list (N * V)) :
    ~ In t (map fst l) -> aset N.eqb t v' (merged_alist srcs t v l) = merged_alist srcs t v' l.
  Proof. intros Ht. rewrite !(merged_alist_aset _ _ _ _ Ht). apply (aset_twice N.eqb Neqb_spec). Qed.

  Lemma nodup_merged srcs t v (l : list (N * V)) :
    NoDup (map fst l) -> ~ In t (map fst l) -> NoDup (map fst (merged_alist srcs t v l)).
  Proof.
    intros Hnd Ht. rewrite (merged_alist_aset _ _ _ _ Ht).
    apply (nodup_aset N.eqb Neqb_spec), nodup_map_filter, Hnd.
  Qed.

  Lemma bound_merged srcs t v (l : list (N * V)) :
    (forall p, In p (map fst l) -> p < t) -> forall p, In p (map fst (merged_alist srcs t v l)) -> p < t + 1.
  Proof.
    intros Hb p Hp. unfold merged_alist in Hp. rewrite map_app in Hp. cbn [map fst] in Hp.
    apply in_app_or in Hp as [Hp|[<-|[]]]; [|lia].
    specialize (Hb p (incl_map fst (incl_filter _ l) _ Hp)). lia.
  Qed.
End AListMore.

Lemma in_concat_filter {A} (f : list A -> bool) (gs : list (list A)) x :
  In x (concat (filter f gs)) -> In x (concat gs).
Proof.
  rewrite !in_concat. intros (g & Hg & Hin). apply filter_In in Hg. exists g. tauto.
Qed.

Lemma nodup_concat_filter {A} (f : list A -> bool) (gs : list (list A)) :
  NoDup (concat gs) -> NoDup (concat (filter f gs)).
Proof.
  induction gs as [|g gs IH]; simpl; intros H; [constructor|].
  apply nodup_app_iff in H as (H1 & H2 & H3).
  destruct (f g); simpl; [|exact (IH H2)].
  apply nodup_app_iff. split; [exact H1|split; [exact (IH H2)|]].
  intros x Hx Hc. exact (H3 x Hx (in_concat_filter f gs x Hc)).
Qed.

Definition keyed (rows : list crow) : list (path * crow) := map (fun r => (r_path r, r)) rows.

Lemma find_row_keyed p rows : find_row p rows = aget N.eqb p (keyed rows).
Proof. induction rows as [|x t IH]; simpl; [|rewrite IH]; reflexivity. Qed.

Lemma keyed_keys rows : akeys (keyed rows) = map r_path rows.
Proof. apply map_map. Qed.

Lemma find_row_some p rows r : find_row p rows = Some r -> In r rows /\ r_path r = p.
Proof.
  rewrite find_row_keyed. intros H. apply (aget_In N.eqb Neqb_spec) in H.
  apply in_map_iff in H as (x & Hx & Hin). inversion Hx; subst. split; [exact Hin|reflexivity].
Qed.

Lemma find_row_none p rows : find_row p rows = None <-> ~ In p (map r_path rows).
Proof. rewrite find_row_keyed, <- keyed_keys. apply (aget_none_notin N.eqb Neqb_spec). Qed.

Lemma find_row_nodup rows r :
  NoDup (map r_path rows) -> In r rows -> find_row (r_path r) rows = Some r.
Proof.
  rewrite find_row_keyed, <- keyed_keys. intros Hnd Hin.
  apply (In_aget_nodup N.eqb Neqb_spec _ _ _ Hnd). exact (in_map _ _ _ Hin).
Qed.

Lemma find_row_in_paths p rows : In p (map r_path rows) -> exists r, find_row p rows = Some r.
Proof. rewrite find_row_keyed, <- keyed_keys. apply (in_keys_aget N.eqb Neqb_spec). Qed.

Lemma find_row_app_l p a b : In p (map r_path a) -> find_row p (a ++ b) = find_row p a.
Proof.
  intros H. apply find_row_in_paths in H as [r Hr]. rewrite Hr.
  rewrite find_row_keyed in *. unfold keyed. rewrite map_app.
  apply aget_app_l. exact Hr.
Qed.

Lemma find_row_app_r p a b : ~ In p (map r_path a) -> find_row p (a ++ b) = find_row p b.
Proof.
  rewrite <- keyed_keys, !find_row_keyed. unfold keyed at 2. rewrite map_app.
  apply (aget_app_notin N.eqb Neqb_spec).
Qed.

Lemma find_row_filter p (f : crow -> bool) rows r :
  NoDup (map r_path rows) -> find_row p rows = Some r -> f r = true ->
  find_row p (filter f rows) = Some r.
Proof.
  intros Hnd Hf Hfr. destruct (find_row_some _ _ _ Hf) as [Hin Hp]. subst p.
  apply find_row_nodup; [apply nodup_map_filter; exact Hnd|].
  apply filter_In. split; assumption.
Qed.

Lemma reorder_In ord rows r :
  NoDup (map r_path rows) -> (In r (reorder ord rows) <-> In r rows).
Proof.
  intros Hnd. unfold reorder. rewrite in_app_iff, in_flat_map, filter_In. split.
  - intros [[p [Hp Hr]]|[Hr _]]; [|exact Hr].
    destruct (find_row p rows) as [r'|] eqn:E; [|contradiction].
    destruct Hr as [<-|[]]. apply (find_row_some _ _ _ E).
  - intros Hr. destruct (memN (r_path r) ord) eqn:Em; [left|right; split; [exact Hr|reflexivity]].
    exists (r_path r). split; [apply dedupN_In, memN_In; exact Em|].
    rewrite (find_row_nodup _ _ Hnd Hr). left; reflexivity.
Qed.

Lemma flat_map_find_paths rows (l : list path) :
  map r_path (flat_map (fun p => match find_row p rows with Some r => [r] | None => [] end) l)
  = filter (fun p => match find_row p rows with Some _ => true | None => false end) l.
Proof.
  induction l as [|p t IH]; simpl; [reflexivity|].
  destruct (find_row p rows) as [r|] eqn:E; simpl; [|exact IH].
  destruct (find_row_some _ _ _ E) as [_ Hp]. rewrite Hp, IH. reflexivity.
Qed.

Lemma reorder_nodup ord rows :
  NoDup (map r_path rows) -> NoDup (map r_path (reorder ord rows)).
Proof.
  intros Hnd. unfold reorder. rewrite map_app, flat_map_find_paths. apply nodup_app_iff.
  split; [apply NoDup_filter, dedupN_nodup|]. split; [apply nodup_map_filter; exact Hnd|].
  intros x Hx Hc. apply filter_In in Hx as [Hx _]. apply (proj1 (dedupN_In _ _)) in Hx.
  apply in_map_iff in Hc as (r & <- & Hin). apply filter_In in Hin as [_ Hm].
  apply negb_true_iff, memN_false in Hm. exact (Hm Hx).
Qed.

Lemma reorder_paths ord rows p :
  NoDup (map r_path rows) -> (In p (map r_path (reorder ord rows)) <-> In p (map r_path rows)).
Proof.
  intros Hnd. rewrite !in_map_iff. split; intros [r [Hp Hr]]; exists r; (split; [exact Hp|]);
    apply (reorder_In ord rows r Hnd); exact Hr.
Qed.

(* what a candidate call must satisfy: no chunk twice, every member is a row
   of the requested level *)
Definition sel_ok (lvl : N) (rows : list crow) (gs : list (list path)) : Prop :=
  NoDup (concat gs) /\
  forall g p, In g gs -> In p g -> exists r, In r rows /\ r_path r = p /\ r_level r = lvl.

Lemma sel_ok_filter f lvl rows gs : sel_ok lvl rows gs -> sel_ok lvl rows (filter f gs).
Proof.
  intros [Hnd Hm]. split; [apply nodup_concat_filter; exact Hnd|].
  intros g p Hg. apply filter_In in Hg. apply Hm, Hg.
Qed.

Lemma sel_ok_incl lvl rows rows' gs :
  (forall r, In r rows -> In r rows') -> sel_ok lvl rows gs -> sel_ok lvl rows' gs.
Proof.
  intros Hsub [Hnd Hm]. split; [exact Hnd|]. intros g p Hg Hp.
  destruct (Hm g p Hg Hp) as (r & Hr & H). exists r. split; [exact (Hsub r Hr)|exact H].
Qed.

Lemma ti_push_eq b p ti :
  ti_push b p ti = match ti with
                   | [] => [(b, [p])]
                   | (b', l) :: r => if Z.eqb b b' then (b', l ++ [p]) :: r else (b', l) :: ti_push b p r
                   end.
Proof.
  unfold ti_push. destruct ti as [|[b' l] r]; simpl; [reflexivity|].
  destruct (Z.eqb b b') eqn:E; simpl; [reflexivity|].
  destruct (aget Z.eqb b r); reflexivity.
Qed.

Lemma ti_push_perm b p ti :
  Permutation (concat (map snd (ti_push b p ti))) (p :: concat (map snd ti)).
Proof.
  induction ti as [|[b' l] r IH]; rewrite ti_push_eq; simpl; [apply Permutation_refl|].
  destruct (Z.eqb b b'); simpl.
  - rewrite <- app_assoc. simpl. apply Permutation_sym, Permutation_middle.
  - rewrite IH. apply Permutation_sym, Permutation_middle.
Qed.

Lemma ti_push_nonempty b p ti :
  (forall g, In g (map snd ti) -> g <> []) -> forall g, In g (map snd (ti_push b p ti)) -> g <> [].
Proof.
  induction ti as [|[b' l] r IH]; rewrite ti_push_eq; simpl.
  - intros _ g [<-|[]]; discriminate.
  - intros Hne. destruct (Z.eqb b b'); simpl.
    + intros g [<-|H]; [destruct l; discriminate|apply Hne; right; exact H].
    + intros g [H|H]; [apply Hne; left; exact H|].
      apply IH; [intros g' Hg'; apply Hne; right; exact Hg'|exact H].
Qed.

Definition l0_step (w : Z) (acc : tindex) (r : crow) : tindex :=
  if N.eqb (r_level r) 0 then ti_push (bucketw w (r_min r)) (r_path r) acc else acc.

Lemma l0_fold_perm w rows : forall acc,
  Permutation (concat (map snd (fold_left (l0_step w) rows acc)))
              (map r_path (filter (fun r => N.eqb (r_level r) 0) rows) ++ concat (map snd acc)).
Proof.
  induction rows as [|r t IH]; simpl; intros acc; [apply Permutation_refl|].
  rewrite IH. unfold l0_step at 1.
  destruct (N.eqb (r_level r) 0); simpl; [|apply Permutation_refl].
  rewrite ti_push_perm. apply Permutation_sym, Permutation_middle.
Qed.

(* groups cut from the front of some arrangement of the level's chunks *)
Lemma sel_ok_perm lvl rows gs rest :
  NoDup (map r_path rows) ->
  Permutation (concat gs ++ rest) (map r_path (filter (fun r => N.eqb (r_level r) lvl) rows)) ->
  sel_ok lvl rows gs.
Proof.
  intros Hnd Hp. split.
  - apply (nodup_app_iff (concat gs) rest), (Permutation_NoDup (Permutation_sym Hp)), nodup_map_filter, Hnd.
  - intros g p Hg Hin.
    assert (Hc : In p (concat gs ++ rest)) by (apply in_or_app; left; apply in_concat; exists g; split; assumption).
    apply (Permutation_in _ Hp), in_map_iff in Hc as (r & Hr & Hf).
    apply filter_In in Hf as [Hf Hl]. apply N.eqb_eq in Hl. exists r. split; [exact Hf|split; assumption].
Qed.

Lemma l0_groups_ok w thr rows :
  NoDup (map r_path rows) ->
  sel_ok 0 rows (l0_groups w thr rows) /\ forall g, In g (l0_groups w thr rows) -> g <> [].
Proof.
  intros Hnd. unfold l0_groups. change (l0_buckets w rows) with (fold_left (l0_step w) rows []). split.
  - apply sel_ok_filter, (sel_ok_perm 0 rows _ [] Hnd). rewrite (l0_fold_perm w rows []), !app_nil_r.
    apply Permutation_refl.
  - intros g Hg. apply filter_In in Hg as [Hg _]. revert g Hg.
    apply (fold_left_inv (fun acc => forall g, In g (map snd acc) -> g <> [])); [|intros g []].
    intros acc r _ Hne. unfold l0_step. destruct (N.eqb (r_level r) 0); [|exact Hne].
    apply ti_push_nonempty. exact Hne.
Qed.

Lemma insert_by_min_perm r l : Permutation (insert_by_min r l) (r :: l).
Proof.
  induction l as [|x t IH]; simpl; [apply Permutation_refl|].
  destruct (r_min r <=? r_min x)%Z; [apply Permutation_refl|].
  rewrite IH. apply perm_swap.
Qed.

Lemma sort_by_min_perm l : Permutation (sort_by_min l) l.
Proof.
  induction l as [|x t IH]; simpl; [apply Permutation_refl|].
  rewrite insert_by_min_perm. apply perm_skip, IH.
Qed.

(* [sort_by_min] sorts; C20 only needs that it permutes *)
Fixpoint sorted_by_min (l : list crow) : Prop :=
  match l with
  | [] => True
  | x :: t => (forall y, In y t -> (r_min x <= r_min y)%Z) /\ sorted_by_min t
  end.

Lemma insert_by_min_sorted r l : sorted_by_min l -> sorted_by_min (insert_by_min r l).
Proof.
  induction l as [|x t IH]; simpl; [intros _; split; [intros y []|exact I]|].
  intros [Hx Ht]. destruct (r_min r <=? r_min x)%Z eqn:E.
  - apply Z.leb_le in E. simpl. split; [|split; assumption].
    intros y [<-|Hy]; [exact E|]. specialize (Hx y Hy). lia.
  - apply Z.leb_gt in E. simpl. split; [|apply IH; exact Ht].
    intros y Hy. apply (Permutation_in _ (insert_by_min_perm r t)) in Hy.
    destruct Hy as [<-|Hy]; [lia|exact (Hx y Hy)].
Qed.

Lemma sort_by_min_sorted l : sorted_by_min (sort_by_min l).
Proof. induction l as [|x t IH]; simpl; [exact I|apply insert_by_min_sorted; exact IH]. Qed.

Lemma level_rows_perm lvl rows :
  Permutation (level_rows lvl rows) (filter (fun r => N.eqb (r_level r) lvl) rows).
Proof. apply sort_by_min_perm. Qed.

(* both flavours cut their groups from the front of the sorted rows; a row
   joins the open group [cur] before that group is closed or kept open *)
Lemma s3_acc_concat target rows : forall cur size gs,
  s3_acc target cur size rows = Some gs -> concat gs = cur ++ map r_path rows.
Proof.
  induction rows as [|r t IH]; simpl; intros cur size gs H.
  - inversion H; subst. destruct cur; simpl; [reflexivity|rewrite !app_nil_r; reflexivity].
  - change (r_path r :: map r_path t) with ([r_path r] ++ map r_path t). rewrite app_assoc.
    destruct (usize_max <? size + r_size r); [discriminate|].
    destruct (target <=? size + r_size r); [|exact (IH _ _ _ H)].
    destruct (s3_acc target [] 0 t) as [gs'|] eqn:E; simpl in H; [|discriminate].
    inversion H; subst. simpl. rewrite (IH _ _ _ E). reflexivity.
Qed.

(* the in-memory flavour drops the trailing chunks *)
Lemma local_acc_concat target rows : forall cur size gs,
  local_acc target cur size rows = Some gs -> exists rest, concat gs ++ rest = cur ++ map r_path rows.
Proof.
  induction rows as [|r t IH]; simpl; intros cur size gs H.
  - inversion H; subst. exists cur. simpl. rewrite app_nil_r. reflexivity.
  - change (r_path r :: map r_path t) with ([r_path r] ++ map r_path t). rewrite app_assoc.
    destruct (usize_max <? size + r_size r); [discriminate|].
    destruct (target <=? size + r_size r); [|exact (IH _ _ _ H)].
    destruct (Consts.LOCAL_LEVEL_MIN_GROUP <=? N.of_nat (length (cur ++ [r_path r]))); [|exact (IH _ _ _ H)].
    destruct (local_acc target [] 0 t) as [gs'|] eqn:E; simpl in H; [|discriminate].
    inversion H; subst. destruct (IH _ _ _ E) as [rest Hr]. exists rest. simpl in *.
    rewrite <- app_assoc, Hr. reflexivity.
Qed.

Lemma s3_level_ok lvl target rows gs :
  NoDup (map r_path rows) -> s3_level lvl target rows = Some gs -> sel_ok lvl rows gs.
Proof.
  intros Hnd H. apply s3_acc_concat in H. apply (sel_ok_perm lvl rows gs [] Hnd).
  rewrite app_nil_r, H. exact (Permutation_map r_path (level_rows_perm lvl rows)).
Qed.

Lemma local_level_ok lvl target rows gs :
  NoDup (map r_path rows) -> local_level lvl target rows = Some gs -> sel_ok lvl rows gs.
Proof.
  intros Hnd H. apply local_acc_concat in H as [rest H]. apply (sel_ok_perm lvl rows gs rest Hnd).
  rewrite H. exact (Permutation_map r_path (level_rows_perm lvl rows)).
Qed.

(* the object-store flavour selects every chunk of the level (the in-memory
   flavour may drop the trailing ones) *)
Lemma s3_level_complete lvl target rows gs r :
  s3_level lvl target rows = Some gs -> In r rows -> r_level r = lvl -> In (r_path r) (concat gs).
Proof.
  intros H Hin Hl. apply s3_acc_concat in H. rewrite H.
  apply in_map, (Permutation_in _ (Permutation_sym (level_rows_perm lvl rows))), filter_In.
  split; [exact Hin|apply N.eqb_eq; exact Hl].
Qed.

(* the level of path [p] among [rows]; the model's [level_in] and, for a state
   of the cycle, [lev] below are this lookup on the backend's rows *)
Definition lev_rows (rows : list crow) (p : path) : option N := option_map r_level (find_row p rows).

Lemma level_in_lev_rows {C} (B : backend C) c p : level_in B c p = lev_rows (b_rows B c) p.
Proof. reflexivity. Qed.

(* register the merged chunk, then complete_compaction: the sources go, the
   target appears with level 1 + max (levels of the sources) *)
Definition merged_rows (rows : list crow) (srcs : list path) (t : path) (m : cmeta) : list crow :=
  filter (fun r => negb (memN (r_path r) srcs)) rows
  ++ [mkRow t (max_level (lev_rows rows) srcs + 1) (m_min m) (m_size m)].

Definition rows_ok (rows : list crow) (n : N) : Prop :=
  NoDup (map r_path rows) /\ forall r, In r rows -> r_path r < n.

Lemma lev_rows_in rows r :
  NoDup (map r_path rows) -> In r rows -> lev_rows rows (r_path r) = Some (r_level r).
Proof. intros Hnd Hr. unfold lev_rows. rewrite (find_row_nodup _ _ Hnd Hr). reflexivity. Qed.

Lemma in_merged_rows rows g t m r :
  In r (merged_rows rows g t m) <->
  (In r rows /\ ~ In (r_path r) g) \/ mkRow t (max_level (lev_rows rows) g + 1) (m_min m) (m_size m) = r.
Proof.
  unfold merged_rows. rewrite in_app_iff, filter_In, negb_true_iff, memN_false. simpl. tauto.
Qed.

Lemma max_level_ext lv lv' srcs :
  (forall p, In p srcs -> lv p = lv' p) -> max_level lv srcs = max_level lv' srcs.
Proof.
  unfold max_level. generalize 0. induction srcs as [|p t IH]; simpl; intros acc H; [reflexivity|].
  rewrite (H p (or_introl eq_refl)). apply IH. intros q Hq. apply H. right; exact Hq.
Qed.

Lemma max_level_const lv L srcs :
  srcs <> [] -> (forall p, In p srcs -> lv p = Some L) -> max_level lv srcs = L.
Proof.
  intros Hne H. rewrite (max_level_ext lv (fun _ => Some L) srcs H).
  destruct srcs as [|p t]; [contradiction|]. unfold max_level. simpl. rewrite N.max_0_l.
  clear. induction t as [|q t IH]; simpl; [reflexivity|]. rewrite N.max_id. exact IH.
Qed.

(* a group the compactor may merge at level [L]: its members are live rows of
   that level; merging it makes the measure drop because it has at least two
   members or lifts at least one chunk out of level 0 *)
Record mergeable (L : N) (rows : list crow) (g : list path) : Prop := mkMergeable {
  mg_nodup : NoDup g;
  mg_nonempty : g <> [];
  mg_drop : L = 0 \/ (2 <= length g)%nat;
  mg_members : forall p, In p g -> exists r, In r rows /\ r_path r = p /\ r_level r = L }.

(* groups that can be merged one after the other *)
Definition todo_ok (L : N) (rows : list crow) (gs : list (list path)) : Prop :=
  sel_ok L rows gs /\ forall g, In g gs -> g <> [] /\ (L = 0 \/ (2 <= length g)%nat).

Lemma todo_ok_filter f L rows gs : todo_ok L rows gs -> todo_ok L rows (filter f gs).
Proof.
  intros [Hs Hg]. split; [apply sel_ok_filter; exact Hs|].
  intros g Hin. apply filter_In in Hin. apply Hg, Hin.
Qed.

Lemma todo_ok_head L rows g gs : todo_ok L rows (g :: gs) -> mergeable L rows g.
Proof.
  intros [[Hnd Hm] Hg]. simpl in Hnd. apply nodup_app_iff in Hnd as [Hnd _].
  destruct (Hg g (or_introl eq_refl)) as [Hne Hlen].
  split; [exact Hnd|exact Hne|exact Hlen|]. intros p. exact (Hm g p (or_introl eq_refl)).
Qed.

(* the sources of the first group are disjoint from the other groups, whose
   members therefore survive its merge *)
Lemma todo_ok_tail L rows g gs t m :
  todo_ok L rows (g :: gs) -> todo_ok L (merged_rows rows g t m) gs.
Proof.
  intros [[Hnd Hm] Hg]. simpl in Hnd. apply nodup_app_iff in Hnd as (_ & Hnd & Hdis).
  split; [split; [exact Hnd|]|intros g' Hg'; apply Hg; right; exact Hg'].
  intros g' p Hg' Hp. destruct (Hm g' p (or_intror Hg') Hp) as (r & Hr & Hpr & Hl).
  exists r. split; [|split; assumption]. apply in_merged_rows. left. split; [exact Hr|].
  rewrite Hpr. intros Hc. apply (Hdis p Hc), in_concat. exists g'. split; assumption.
Qed.

Lemma mergeable_paths L rows g p : mergeable L rows g -> In p g -> In p (map r_path rows).
Proof. intros Hg Hp. destruct (mg_members _ _ _ Hg p Hp) as (r & Hr & <- & _). apply in_map, Hr. Qed.

Lemma lev_merged_new L rows n g m :
  rows_ok rows n -> mergeable L rows g -> lev_rows (merged_rows rows g n m) n = Some (L + 1).
Proof.
  intros [Hnd Hb] [_ Hne _ Hm]. unfold lev_rows, merged_rows. rewrite find_row_app_r.
  - cbn [find_row r_path]. rewrite N.eqb_refl. cbn [option_map r_level]. f_equal. f_equal.
    apply max_level_const; [exact Hne|]. intros p Hp.
    destruct (Hm p Hp) as (r & Hr & <- & <-). apply lev_rows_in; assumption.
  - intros Hc. apply in_map_iff in Hc as (r & Hp & Hr). apply filter_In in Hr as [Hr _].
    specialize (Hb r Hr). lia.
Qed.

Lemma count_split rows g :
  NoDup (map r_path rows) -> NoDup g -> (forall p, In p g -> In p (map r_path rows)) ->
  (length (filter (fun r => negb (memN (r_path r) g)) rows) + length g = length rows)%nat.
Proof.
  intros Hnd Hg Hsub.
  pose proof (filter_length_split (fun r => memN (r_path r) g) rows) as Hs.
  assert (Hl : length (filter (fun r => memN (r_path r) g) rows) = length g); [|lia].
  rewrite <- (map_length r_path). apply Permutation_length, NoDup_Permutation.
  - apply nodup_map_filter. exact Hnd.
  - exact Hg.
  - intros p. rewrite in_map_iff. split.
    + intros (r & <- & Hin). apply filter_In in Hin as [_ Hm]. apply memN_In, Hm.
    + intros Hp. destruct (proj1 (in_map_iff _ _ _) (Hsub p Hp)) as (r & Hr & Hin).
      exists r. split; [exact Hr|]. apply filter_In. split; [exact Hin|].
      apply memN_In. rewrite Hr. exact Hp.
Qed.

(* the target costs 2; the sources free 2 each, and 3 each when they leave level 0 *)
Lemma measure_merged L rows g t m :
  NoDup (map r_path rows) -> mergeable L rows g ->
  (measure_rows (merged_rows rows g t m) + 1 <= measure_rows rows)%nat.
Proof.
  intros Hnd Hmg. pose proof (fun p => mergeable_paths L rows g p Hmg) as Hsub.
  destruct Hmg as [Hg Hne Hlen Hm]. unfold measure_rows, merged_rows.
  rewrite filter_app, !app_length. cbn [filter r_level length].
  replace (N.eqb (max_level (lev_rows rows) g + 1) 0) with false
    by (symmetry; apply N.eqb_neq; lia).
  cbn [length]. pose proof (count_split rows g Hnd Hg Hsub) as Hc.
  rewrite filter_filter_comm.
  set (keep := fun r : crow => negb (memN (r_path r) g)) in *.
  set (l0 := fun r : crow => N.eqb (r_level r) 0) in *.
  destruct Hlen as [->|H2].
  - assert (Hc0 : (length (filter keep (filter l0 rows)) + length g = length (filter l0 rows))%nat).
    { apply count_split; [apply nodup_map_filter; exact Hnd|exact Hg|].
      intros p Hp. destruct (Hm p Hp) as (r & Hr & Hpr & Hl). apply in_map_iff. exists r.
      split; [exact Hpr|]. apply filter_In. split; [exact Hr|]. apply N.eqb_eq. exact Hl. }
    assert (1 <= length g)%nat by (destruct g; [contradiction|simpl; lia]). lia.
  - pose proof (filter_length_le keep (filter l0 rows)). lia.
Qed.

Lemma merges_of_app a b : merges_of (a ++ b) = (merges_of a + merges_of b)%nat.
Proof. unfold merges_of. rewrite filter_app, app_length. reflexivity. Qed.

Lemma min_group_ge2 : 2 <= Consts.COMPACT_LEVEL_MIN_GROUP.
Proof. vm_compute. discriminate. Qed.

Lemma cap_groups_filter gs : cap_groups gs = filter (fun _ => has_capacity) gs.
Proof.
  unfold cap_groups. destruct has_capacity; induction gs as [|g gs IH]; simpl; congruence.
Qed.

Lemma measure_le_3n rows : (measure_rows rows <= 3 * length rows)%nat.
Proof. unfold measure_rows. pose proof (filter_length_le (fun r => N.eqb (r_level r) 0) rows). lia. Qed.

Definition converges_stmt {C} (B : backend C) (Inv : cstate C -> Prop) : Prop :=
  (* a cycle without a merge changes nothing *)
  (forall i st, Inv st -> merges_of (cycle_events B i st) = O -> cycle_state B i st = st) /\
  (* a cycle with a merge strictly decreases the measure *)
  (forall i st, Inv st -> merges_of (cycle_events B i st) <> O ->
                (measure B (cycle_state B i st) < measure B st)%nat) /\
  (* over any history (configurations, hash orders and oracles may change from
     cycle to cycle) at most [measure st] <= 3 * #chunks merges happen *)
  (forall h st, Inv st -> (total_merges B h st + measure B (run_cycles B h st) <= measure B st)%nat) /\
  (* the measure is 2 per chunk and 1 more per level-0 chunk *)
  (forall st, (measure B st <= 3 * length (b_rows B (st_cat st)))%nat) /\
  (* hence among the first measure+1 cycles there is one that changes nothing *)
  (forall h st, Inv st -> (measure B st < length h)%nat ->
     exists n, (n <= measure B st)%nat /\ (n < length h)%nat /\
               run_cycles B (firstn (S n) h) st = run_cycles B (firstn n h) st) /\
  (* and with a fixed input the state is a fixpoint from then on *)
  (forall i st, Inv st -> exists n, (n <= measure B st)%nat /\
     forall k, run_cycles B (repeat i (n + k)) st = run_cycles B (repeat i n) st).

Section Generic.
  Context {C : Type}.
  Variable B : backend C.
  (* well-formedness of a catalog w.r.t. the fresh-path counter *)
  Variable wf : C -> N -> Prop.
  Hypothesis wf_rows : forall c n, wf c n -> rows_ok (b_rows B c) n.
  Hypothesis merge_ok : forall c t srcs m, wf c t ->
    (forall p, In p srcs -> In p (map r_path (b_rows B c))) ->
    exists c2, b_complete B (b_register B c t m) srcs t = Some c2 /\
               b_rows B c2 = merged_rows (b_rows B c) srcs t m /\ wf c2 (t + 1).
  Hypothesis l0_ok : forall thr rows, NoDup (map r_path rows) ->
    sel_ok 0 rows (b_l0 B thr rows) /\ forall g, In g (b_l0 B thr rows) -> g <> [].
  Hypothesis level_ok : forall lvl tgt rows gs, NoDup (map r_path rows) ->
    b_level B lvl tgt rows = Some gs -> sel_ok lvl rows gs.

  Definition rows_of (st : cstate C) : list crow := b_rows B (st_cat st).
  Definition Inv (st : cstate C) : Prop := wf (st_cat st) (st_fresh st).
  Definition lev (st : cstate C) (p : path) : option N := lev_rows (rows_of st) p.

  (* [r] is a row of [st], or carries a path that [st] has not handed out yet *)
  Definition old_or_fresh (st : cstate C) (r : crow) : Prop := In r (rows_of st) \/ st_fresh st <= r_path r.

  (* a later state: every row is an old row (unchanged) or a new one *)
  Definition step_rel (st st' : cstate C) : Prop :=
    st_fresh st <= st_fresh st' /\ forall r, In r (rows_of st') -> old_or_fresh st r.

  Lemma old_or_fresh_step st st' r : step_rel st st' -> old_or_fresh st' r -> old_or_fresh st r.
  Proof. intros [H1 H2] [H|H]; [exact (H2 r H)|right; lia]. Qed.

  Lemma step_rel_refl st : step_rel st st.
  Proof. split; [apply N.le_refl|intros r Hr; left; exact Hr]. Qed.

  Lemma step_rel_trans a b c : step_rel a b -> step_rel b c -> step_rel a c.
  Proof.
    intros Hab [H3 H4]. split; [destruct Hab; lia|].
    intros r Hr. exact (old_or_fresh_step _ _ _ Hab (H4 r Hr)).
  Qed.

  (* [st'] is a well-formed later state whose measure lies at least [k] below
     that of [st]; [k] will be the number of merges in between, and without a
     merge nothing has changed *)
  Record advance (st st' : cstate C) (k : nat) : Prop := mkAdvance {
    adv_inv : Inv st';
    adv_rel : step_rel st st';
    adv_measure : (measure B st' + k <= measure B st)%nat;
    adv_idle : k = O -> st' = st }.

  Lemma advance_refl st : Inv st -> advance st st 0.
  Proof. intros HI. split; [exact HI|apply step_rel_refl|lia|reflexivity]. Qed.

  Lemma advance_trans a b c j k : advance a b j -> advance b c k -> advance a c (j + k).
  Proof.
    intros Ha Hb. pose proof (adv_measure _ _ _ Ha). pose proof (adv_measure _ _ _ Hb).
    split; [exact (adv_inv _ _ _ Hb)|exact (step_rel_trans _ _ _ (adv_rel _ _ _ Ha) (adv_rel _ _ _ Hb))|lia|].
    intros Hjk. rewrite (adv_idle _ _ _ Hb), (adv_idle _ _ _ Ha) by lia. reflexivity.
  Qed.

  Lemma merge_step g m L st :
    Inv st -> mergeable L (rows_of st) g ->
    exists c2, b_complete B (b_register B (st_cat st) (st_fresh st) m) g (st_fresh st) = Some c2 /\
      b_rows B c2 = merged_rows (rows_of st) g (st_fresh st) m /\
      level_in B c2 (st_fresh st) = Some (L + 1) /\
      advance st (mkSt c2 (st_fresh st + 1)) 1.
  Proof.
    intros HI Hg. pose proof (wf_rows _ _ HI) as Hok.
    destruct (merge_ok _ _ g m HI (fun p => mergeable_paths _ _ _ p Hg)) as (c2 & Hc & Hrows & Hwf).
    exists c2. split; [exact Hc|]. split; [exact Hrows|]. split.
    - rewrite level_in_lev_rows, Hrows. exact (lev_merged_new L _ _ g m Hok Hg).
    - split; [exact Hwf| |unfold measure; simpl; rewrite Hrows|discriminate].
      + (* step_rel *) split; [simpl; lia|]. unfold rows_of at 1. simpl. rewrite Hrows. intros r Hr.
        apply in_merged_rows in Hr as [[Hr _]|<-]; [left; exact Hr|right; apply N.le_refl].
      + (* measure *) exact (measure_merged L _ g _ m (proj1 Hok) Hg).
  Qed.

  (* [lvl] only labels the events; [L] is the level the groups' members have
     (the passes call this with [L = u32_of lvl]) *)
  Lemma run_groups_spec oracle lvl L : forall gs st,
    Inv st -> todo_ok L (rows_of st) gs ->
    let '(st', s, ev) := run_groups B oracle lvl gs st in
    s = CSOk /\ advance st st' (length gs) /\ merges_of ev = length gs /\
    forall e, In e ev -> exists g t m, e = EMerge lvl g t m (Some (L + 1)) /\ In g gs.
  Proof.
    induction gs as [|g rest IH]; intros st HI Hgs.
    - simpl. split; [reflexivity|]. split; [apply advance_refl; exact HI|].
      split; [reflexivity|intros e []].
    - destruct (merge_step g (oracle g) L st HI (todo_ok_head _ _ _ _ Hgs))
        as (c2 & Hc & Hrows & Hnew & Hadv).
      cbn [run_groups]. rewrite Hc.
      specialize (IH (mkSt c2 (st_fresh st + 1)) (adv_inv _ _ _ Hadv)).
      unfold rows_of at 1 in IH. cbn [st_cat] in IH. rewrite Hrows in IH.
      specialize (IH (todo_ok_tail _ _ _ _ _ _ Hgs)).
      destruct (run_groups B oracle lvl rest _) as [[st' s] ev].
      destruct IH as (Hs & Hadv' & Hmer & Hev).
      split; [exact Hs|]. split; [exact (advance_trans _ _ _ 1 _ Hadv Hadv')|].
      split; [unfold merges_of in *; simpl; rewrite Hmer; reflexivity|].
      intros e [<-|He].
      + exists g, (st_fresh st), (oracle g). rewrite Hnew. split; [reflexivity|left; reflexivity].
      + destruct (Hev e He) as (g' & t & m & He' & Hg'). exists g', t, m.
        split; [exact He'|right; exact Hg'].
  Qed.

  (* what the property says of one event of a cycle started in [st], the
     candidate calls being looked up in [ctx] *)
  Definition event_ok (st : cstate C) (ctx : list cevent) (e : cevent) : Prop :=
    match e with
    | EPending _ => True
    | ESel lvl seen gs =>
        NoDup (map r_path seen) /\ sel_ok (u32_of lvl) seen gs /\ forall r, In r seen -> old_or_fresh st r
    | EMerge lvl g t m nl =>
        g <> [] /\ nl = Some (u32_of lvl + 1) /\ exists seen gs, In (ESel lvl seen gs) ctx /\ In g gs
    end.

  Definition ev_ok (st : cstate C) (ev : list cevent) : Prop := forall e, In e ev -> event_ok st ev e.

  Lemma event_ok_mono st st' ctx ctx' e :
    step_rel st st' -> (forall x, In x ctx' -> In x ctx) -> event_ok st' ctx' e -> event_ok st ctx e.
  Proof.
    intros Hst Hsub. destruct e as [n|lvl seen gs|lvl g t m nl]; simpl; [trivial| |].
    - intros (H1 & H2 & H3). split; [exact H1|split; [exact H2|]].
      intros r Hr. exact (old_or_fresh_step _ _ _ Hst (H3 r Hr)).
    - intros (H1 & H2 & seen & gs & H3 & H4). split; [exact H1|split; [exact H2|]].
      exists seen, gs. split; [exact (Hsub _ H3)|exact H4].
  Qed.

  Lemma ev_ok_app st st1 a b : step_rel st st1 -> ev_ok st a -> ev_ok st1 b -> ev_ok st (a ++ b).
  Proof.
    intros Hst Ha Hb e He. apply in_app_or in He as [He|He].
    - apply (event_ok_mono st st _ a); [apply step_rel_refl| |exact (Ha e He)].
      intros x Hx. apply in_or_app. left; exact Hx.
    - apply (event_ok_mono st st1 _ b); [exact Hst| |exact (Hb e He)].
      intros x Hx. apply in_or_app. right; exact Hx.
  Qed.

  (* what every pass (and the whole cycle) guarantees of its result (state,
     status, events) *)
  Record pass_ok (st : cstate C) (res : cstate C * cstatus * list cevent) : Prop := mkPassOk {
    pass_status : snd (fst res) <> CSErr;
    pass_advance : advance st (fst (fst res)) (merges_of (snd res));
    pass_events : ev_ok st (snd res) }.

  Lemma pass_ok_inv st res : pass_ok st res -> Inv (fst (fst res)).
  Proof. intros H. exact (adv_inv _ _ _ (pass_advance _ _ H)). Qed.

  Lemma pass_ok_idle st s : Inv st -> s <> CSErr -> pass_ok st (st, s, []).
  Proof. intros HI Hs. split; [exact Hs|apply advance_refl; exact HI|intros e []]. Qed.

  Lemma pass_ok_trans st st1 s1 ev1 st2 s2 ev2 :
    pass_ok st (st1, s1, ev1) -> pass_ok st1 (st2, s2, ev2) -> pass_ok st (st2, s2, ev1 ++ ev2).
  Proof.
    intros [_ A Ea] [Hs A' Eb]. split; cbn [fst snd] in *; [exact Hs| |].
    - rewrite merges_of_app. exact (advance_trans _ _ _ _ _ A A').
    - exact (ev_ok_app _ _ _ _ (adv_rel _ _ _ A) Ea Eb).
  Qed.

  Lemma pass_ok_pending st st' s ev n : pass_ok st (st', s, ev) -> pass_ok st (st', s, EPending n :: ev).
  Proof.
    intros [Hs A E]. split; [exact Hs|exact A|].
    apply (ev_ok_app st st [EPending n] ev); [apply step_rel_refl| |exact E].
    intros e [<-|[]]. exact I.
  Qed.

  (* shared tail of the two passes: selection done, the groups [todo] (a part
     of [gs]) are compacted *)
  Lemma pass_after_selection oracle lvl ord gs todo st :
    Inv st ->
    sel_ok (u32_of lvl) (reorder ord (rows_of st)) gs ->
    todo_ok (u32_of lvl) (reorder ord (rows_of st)) todo -> (forall g, In g todo -> In g gs) ->
    pass_ok st (let '(st', s, ev) := run_groups B oracle lvl (cap_groups todo) st in
                (st', s, ESel lvl (reorder ord (rows_of st)) gs :: ev)).
  Proof.
    intros HI Hsel Htodo Hsub. destruct (wf_rows _ _ HI) as [Hnd _].
    assert (Hcap : todo_ok (u32_of lvl) (rows_of st) (cap_groups todo)).
    { rewrite cap_groups_filter. apply todo_ok_filter. destruct Htodo as [Hs Hg].
      split; [|exact Hg]. apply (sel_ok_incl _ (reorder ord (rows_of st))); [|exact Hs].
      intros r. apply reorder_In. exact Hnd. }
    pose proof (run_groups_spec oracle lvl _ _ st HI Hcap) as Hrun.
    destruct (run_groups B oracle lvl (cap_groups todo) st) as [[st' s] ev].
    destruct Hrun as (Hs & Hadv & Hmer & Hev).
    split; cbn [fst snd]; [rewrite Hs; discriminate| |].
    { change (merges_of (ESel lvl (reorder ord (rows_of st)) gs :: ev)) with (merges_of ev).
      rewrite Hmer. exact Hadv. }
    intros e [<-|He].
    - split; [apply reorder_nodup; exact Hnd|split; [exact Hsel|]].
      intros r Hr. left. apply (reorder_In ord _ r Hnd). exact Hr.
    - destruct (Hev e He) as (g & t & m & -> & Hg).
      rewrite cap_groups_filter in Hg. apply filter_In in Hg as [Hg _].
      split; [apply Htodo, Hg|]. split; [reflexivity|].
      exists (reorder ord (rows_of st)), gs. split; [left; reflexivity|exact (Hsub g Hg)].
  Qed.

  Lemma l0_pass_ok cf oracle ord st : Inv st -> pass_ok st (l0_pass B cf oracle ord st).
  Proof.
    intros HI. destruct (wf_rows _ _ HI) as [Hnd _].
    destruct (l0_ok (cf_threshold cf) _ (reorder_nodup ord _ Hnd)) as [Hsel Hne].
    apply (pass_after_selection oracle 0 ord _ _ st HI Hsel); [|auto].
    split; [exact Hsel|]. intros g Hg. split; [exact (Hne g Hg)|left; reflexivity].
  Qed.

  Lemma level_pass_ok cf oracle lvl ord st : Inv st -> pass_ok st (level_pass B cf oracle lvl ord st).
  Proof.
    intros HI. unfold level_pass.
    destruct (target_size cf lvl) as [tgt|]; [|apply pass_ok_idle; [exact HI|discriminate]].
    destruct (wf_rows _ _ HI) as [Hnd _]. cbv zeta.
    destruct (b_level B (u32_of lvl) tgt _) as [gs|] eqn:Eg; [|apply pass_ok_idle; [exact HI|discriminate]].
    pose proof (level_ok _ _ _ _ (reorder_nodup ord _ Hnd) Eg) as Hsel.
    apply (pass_after_selection oracle lvl ord gs _ st HI Hsel).
    - split; [apply sel_ok_filter; exact Hsel|]. intros g Hg.
      apply filter_In in Hg as [_ Hg]. apply N.leb_le in Hg. pose proof min_group_ge2.
      assert (2 <= length g)%nat by lia. split; [destruct g; [simpl in *; lia|discriminate]|right; assumption].
    - intros g Hg. apply filter_In in Hg. apply Hg.
  Qed.

  Lemma levels_loop_ok cf oracle lvls : forall ords st,
    Inv st -> pass_ok st (levels_loop B cf oracle lvls ords st).
  Proof.
    induction lvls as [|l r IH]; intros ords st HI; cbn [levels_loop].
    - apply pass_ok_idle; [exact HI|discriminate].
    - destruct has_capacity; [|apply pass_ok_idle; [exact HI|discriminate]].
      pose proof (level_pass_ok cf oracle l (hd [] ords) st HI) as H1.
      destruct (level_pass B cf oracle l (hd [] ords) st) as [[st1 s1] ev1].
      destruct s1; try exact H1.
      specialize (IH (tl ords) st1 (pass_ok_inv _ _ H1)).
      destruct (levels_loop B cf oracle r (tl ords) st1) as [[st2 s2] ev2].
      exact (pass_ok_trans _ _ _ _ _ _ _ H1 IH).
  Qed.

  Theorem cycle_ok i st : Inv st -> pass_ok st (cycle B i st).
  Proof.
    intros HI. unfold cycle.
    pose proof (l0_pass_ok (in_cfg i) (in_oracle i) (hd [] (in_ords i)) st HI) as H1.
    destruct (l0_pass B (in_cfg i) (in_oracle i) (hd [] (in_ords i)) st) as [[st1 s1] ev1].
    destruct s1; try (apply pass_ok_pending; exact H1).
    pose proof (levels_loop_ok (in_cfg i) (in_oracle i) (levels_upto (cf_max_levels (in_cfg i)))
                               (tl (in_ords i)) st1 (pass_ok_inv _ _ H1)) as H2.
    destruct (levels_loop B (in_cfg i) (in_oracle i) (levels_upto (cf_max_levels (in_cfg i)))
                          (tl (in_ords i)) st1) as [[st2 s2] ev2].
    apply pass_ok_pending. exact (pass_ok_trans _ _ _ _ _ _ _ H1 H2).
  Qed.

  Theorem cycle_no_error i st : Inv st -> snd (fst (cycle B i st)) <> CSErr.
  Proof. intros HI. exact (pass_status _ _ (cycle_ok i st HI)). Qed.

  Lemma cycle_advance i st : Inv st -> advance st (cycle_state B i st) (merges_of (cycle_events B i st)).
  Proof. intros HI. exact (pass_advance _ _ (cycle_ok i st HI)). Qed.

  Lemma cycle_events_ok i st : Inv st -> ev_ok st (cycle_events B i st).
  Proof. intros HI. exact (pass_events _ _ (cycle_ok i st HI)). Qed.

  Lemma run_cycles_app h1 h2 st : run_cycles B (h1 ++ h2) st = run_cycles B h2 (run_cycles B h1 st).
  Proof. unfold run_cycles. apply fold_left_app. Qed.

  Lemma run_cycles_advance h : forall st,
    Inv st -> advance st (run_cycles B h st) (total_merges B h st).
  Proof.
    induction h as [|i r IH]; intros st HI; simpl; [apply advance_refl; exact HI|].
    pose proof (cycle_advance i st HI) as H1.
    exact (advance_trans _ _ _ _ _ H1 (IH _ (adv_inv _ _ _ H1))).
  Qed.

  Theorem run_cycles_inv h st : Inv st -> Inv (run_cycles B h st).
  Proof. intros HI. exact (adv_inv _ _ _ (run_cycles_advance h st HI)). Qed.

  Theorem groups_disjoint_single_level i st lvl seen gs :
    Inv st -> In (ESel lvl seen gs) (cycle_events B i st) ->
    NoDup (concat gs) /\
    (forall g p, In g gs -> In p g -> exists r, In r seen /\ r_path r = p /\ r_level r = u32_of lvl) /\
    NoDup (map r_path seen) /\
    (forall r, In r seen -> In r (rows_of st) \/ st_fresh st <= r_path r).
  Proof.
    intros HI He. destruct (cycle_events_ok i st HI _ He) as (Hnd & [H1 H2] & Hfrom).
    exact (conj H1 (conj H2 (conj Hnd Hfrom))).
  Qed.

  (* every merge takes one of the selected groups and lifts it one level *)
  Theorem merge_level_rule i st lvl g t m nl :
    Inv st -> In (EMerge lvl g t m nl) (cycle_events B i st) ->
    g <> [] /\ nl = Some (u32_of lvl + 1) /\ exists seen gs, In (ESel lvl seen gs) (cycle_events B i st) /\ In g gs /\ forall p, In p g -> exists r, In r seen /\ r_path r = p /\ r_level r = u32_of lvl.
  Proof.
    intros HI He. pose proof (cycle_events_ok i st HI) as Hev.
    destruct (Hev _ He) as (Hne & Hnl & seen & gs & Hs & Hg).
    split; [exact Hne|split; [exact Hnl|]]. exists seen, gs. split; [exact Hs|split; [exact Hg|]].
    destruct (Hev _ Hs) as (_ & [_ Hmem] & _). intros p. exact (Hmem g p Hg).
  Qed.

  Lemma lev_bound s p a : Inv s -> lev s p = Some a -> p < st_fresh s.
  Proof.
    intros HI Ha. unfold lev, lev_rows in Ha.
    destruct (find_row p (rows_of s)) as [r|] eqn:E; [|discriminate].
    apply find_row_some in E as [Hin <-]. apply (wf_rows _ _ HI), Hin.
  Qed.

  (* a row of a later state whose path the earlier state had already handed
     out is a row of the earlier state *)
  Lemma lev_later s s' p :
    Inv s -> step_rel s s' -> p < st_fresh s -> lev s' p = None \/ lev s' p = lev s p.
  Proof.
    intros HI [_ Hst] Hlt. unfold lev, lev_rows.
    destruct (find_row p (rows_of s')) as [r|] eqn:E; [right|left; reflexivity].
    apply find_row_some in E as [Hin <-]. destruct (Hst r Hin) as [Hold|Hnew]; [|lia].
    rewrite (find_row_nodup (rows_of s) r (proj1 (wf_rows _ _ HI)) Hold). reflexivity.
  Qed.

  (* a path keeps its level for as long as it lives: a merge never rewrites a
     row, it removes rows and adds one under a fresh path *)
  Theorem level_monotone h1 h2 st p a b :
    Inv st -> lev (run_cycles B h1 st) p = Some a -> lev (run_cycles B (h1 ++ h2) st) p = Some b ->
    a = b.
  Proof.
    intros HI Ha Hb. rewrite run_cycles_app in Hb.
    pose proof (run_cycles_inv h1 st HI) as HI1.
    pose proof (adv_rel _ _ _ (run_cycles_advance h2 _ HI1)) as Hs2.
    destruct (lev_later _ _ p HI1 Hs2 (lev_bound _ _ _ HI1 Ha)) as [H|H]; congruence.
  Qed.

  Theorem no_resurrection h1 h2 h3 st p a :
    Inv st -> lev (run_cycles B h1 st) p = Some a -> lev (run_cycles B (h1 ++ h2) st) p = None ->
    lev (run_cycles B (h1 ++ h2 ++ h3) st) p = None.
  Proof.
    intros HI Ha Hn. rewrite app_assoc, run_cycles_app. rewrite run_cycles_app in Hn |- *.
    pose proof (run_cycles_inv h1 st HI) as HI1.
    pose proof (run_cycles_advance h2 _ HI1) as A2. pose proof (adv_inv _ _ _ A2) as HI2.
    pose proof (adv_rel _ _ _ (run_cycles_advance h3 _ HI2)) as Hs3.
    (* [p] was handed out before the end of [h1], and the counter only grows *)
    pose proof (N.lt_le_trans _ _ _ (lev_bound _ _ _ HI1 Ha) (proj1 (adv_rel _ _ _ A2))) as Hlt.
    destruct (lev_later _ _ p HI2 Hs3 Hlt) as [H|H]; congruence.
  Qed.

  Theorem noop_cycle i st :
    Inv st -> merges_of (cycle_events B i st) = O -> cycle_state B i st = st.
  Proof. intros HI. exact (adv_idle _ _ _ (cycle_advance i st HI)). Qed.

  Theorem merging_cycle_decreases i st :
    Inv st -> merges_of (cycle_events B i st) <> O ->
    (measure B (cycle_state B i st) < measure B st)%nat.
  Proof. intros HI Hm. pose proof (adv_measure _ _ _ (cycle_advance i st HI)). lia. Qed.

  Theorem merges_bounded h st :
    Inv st -> (total_merges B h st + measure B (run_cycles B h st) <= measure B st)%nat.
  Proof. intros HI. pose proof (adv_measure _ _ _ (run_cycles_advance h st HI)). lia. Qed.

  Theorem converges h : forall st,
    Inv st -> (measure B st < length h)%nat ->
    exists n, (n <= measure B st)%nat /\ (n < length h)%nat /\ run_cycles B (firstn (S n) h) st = run_cycles B (firstn n h) st.
  Proof.
    induction h as [|i r IH]; intros st HI Hlen; [simpl in Hlen; lia|].
    destruct (Nat.eq_dec (merges_of (cycle_events B i st)) O) as [H0|Hn0].
    - exists O. split; [lia|split; [simpl; lia|]]. simpl. apply noop_cycle; assumption.
    - pose proof (merging_cycle_decreases i st HI Hn0) as Hdec.
      pose proof (adv_inv _ _ _ (cycle_advance i st HI)) as HI1.
      destruct (IH (cycle_state B i st) HI1) as [n [Hn1 [Hn2 Hn3]]]; [simpl in Hlen; lia|].
      exists (S n). split; [lia|split; [simpl; lia|]]. rewrite !firstn_cons. exact Hn3.
  Qed.

  (* with one fixed input (fixed configuration, fixed hash order policy and
     oracle) a cycle is a function: once it changes nothing it never will *)
  Theorem fixpoint_forever i st n :
    cycle_state B i (run_cycles B (repeat i n) st) = run_cycles B (repeat i n) st ->
    forall k, run_cycles B (repeat i (n + k)) st = run_cycles B (repeat i n) st.
  Proof.
    intros Hfix k. rewrite repeat_app, run_cycles_app.
    induction k as [|k IHk]; simpl; [reflexivity|]. rewrite Hfix. exact IHk.
  Qed.

  Theorem converges_fixed i st :
    Inv st -> exists n, (n <= measure B st)%nat /\ forall k, run_cycles B (repeat i (n + k)) st = run_cycles B (repeat i n) st.
  Proof.
    intros HI. destruct (converges (repeat i (S (measure B st))) st HI) as [n [Hn1 [Hn2 Hn3]]].
    { rewrite repeat_length. lia. }
    exists n. split; [exact Hn1|]. apply fixpoint_forever.
    rewrite repeat_length in Hn2. rewrite !firstn_repeat_le in Hn3 by lia.
    replace (S n) with (n + 1)%nat in Hn3 by lia. rewrite repeat_app, run_cycles_app in Hn3. exact Hn3.
  Qed.

  Theorem converges_all : converges_stmt B Inv.
  Proof.
    split; [exact noop_cycle|]. split; [exact merging_cycle_decreases|].
    split; [exact merges_bounded|]. split; [intros st; apply measure_le_3n|].
    split; [exact converges|exact converges_fixed].
  Qed.
End Generic.

Lemma next_free_bound keys : forall acc p,
  (In p keys -> p < fold_left (fun a q => N.max a (q + 1)) keys acc) /\
  acc <= fold_left (fun a q => N.max a (q + 1)) keys acc.
Proof.
  induction keys as [|k t IH]; simpl; intros acc p; [split; [intros []|apply N.le_refl]|].
  destruct (IH (N.max acc (k + 1)) p) as [H1 H2]. split; [|lia].
  intros [H|H]; [subst k; lia|exact (H1 H)].
Qed.

Lemma next_free_lt keys p : In p keys -> p < next_free keys.
Proof. unfold next_free. apply next_free_bound. Qed.

Definition s3_wf (c : cat) (n : N) : Prop :=
  NoDup (map fst (c_chunks c)) /\ forall p, In p (map fst (c_chunks c)) -> p < n.

Definition s3_row (pe : path * centry) : crow :=
  mkRow (fst pe) (e_level (snd pe)) (m_min (e_meta (snd pe))) (m_size (e_meta (snd pe))).

Lemma s3_rows_eq c : s3_rows c = map s3_row (c_chunks c).
Proof. reflexivity. Qed.

Lemma s3_rows_paths c : map r_path (s3_rows c) = map fst (c_chunks c).
Proof. rewrite s3_rows_eq, map_map. apply map_ext. intros [p e]; reflexivity. Qed.

Lemma s3_lev_rows c p : lev_rows (s3_rows c) p = option_map e_level (aget N.eqb p (c_chunks c)).
Proof.
  unfold lev_rows. rewrite s3_rows_eq. induction (c_chunks c) as [|[k e] r IH]; simpl; [reflexivity|].
  destruct (N.eqb p k); [reflexivity|exact IH].
Qed.

Lemma s3_wf_rows c n : s3_wf c n -> rows_ok (s3_rows c) n.
Proof.
  intros [Hnd Hb]. split; [rewrite s3_rows_paths; exact Hnd|].
  intros r Hr. apply Hb. rewrite <- s3_rows_paths. apply in_map. exact Hr.
Qed.

Lemma s3_fold_del1_chunks srcs : forall c,
  c_chunks (fold_left s3_del1 srcs c) = fold_left (fun l p => adel N.eqb p l) srcs (c_chunks c).
Proof. apply fold_left_proj. reflexivity. Qed.

Lemma s3_rows_merged srcs t e (l : list (path * centry)) :
  map s3_row (merged_alist srcs t e l)
  = filter (fun r => negb (memN (r_path r) srcs)) (map s3_row l) ++ [s3_row (t, e)].
Proof.
  unfold merged_alist. rewrite map_app. f_equal.
  induction l as [|[k e'] r IH]; simpl; [reflexivity|].
  unfold keep_not at 1. simpl. destruct (memN k srcs); simpl; rewrite IH; reflexivity.
Qed.

Lemma s3_merge_ok c t srcs m :
  s3_wf c t -> (forall p, In p srcs -> In p (map r_path (s3_rows c))) ->
  exists c2, s3_complete (s3_register c t m) srcs t = Some c2 /\
             s3_rows c2 = merged_rows (s3_rows c) srcs t m /\ s3_wf c2 (t + 1).
Proof.
  intros [Hnd Hb] Hsub. rewrite s3_rows_paths in Hsub.
  assert (Ht : ~ In t (map fst (c_chunks c))) by (intros Hc; specialize (Hb t Hc); lia).
  assert (Hts : ~ In t srcs) by (intros Hc; exact (Ht (Hsub t Hc))).
  rewrite s3_complete_eq. cbv zeta. rewrite s3_fold_del1_chunks. unfold s3_register. cbn [c_chunks].
  rewrite (fold_adel_aset _ _ _ _ Ht Hts), (aget_merged_new _ _ _ _ Ht), (aset_merged _ _ _ _ _ Ht).
  eexists. split; [reflexivity|]. split.
  - unfold s3_rows at 1. cbn [c_chunks e_meta]. fold s3_row. rewrite s3_rows_merged, <- s3_rows_eq.
    unfold merged_rows, s3_row. cbn [fst snd e_level e_meta]. do 4 f_equal.
    apply max_level_ext. intros p Hp. rewrite s3_lev_rows.
    rewrite (aget_aset_other N.eqb Neqb_spec); [reflexivity|]. intros ->. exact (Hts Hp).
  - split; cbn [c_chunks]; [apply nodup_merged|apply bound_merged]; assumption.
Qed.

Lemma s3_l0_ok thr rows : NoDup (map r_path rows) ->
  sel_ok 0 rows (s3_l0 thr rows) /\ forall g, In g (s3_l0 thr rows) -> g <> [].
Proof. apply l0_groups_ok. Qed.

Lemma s3_init_wf c : NoDup (map fst (c_chunks c)) -> s3_wf c (st_fresh (s3_init c)).
Proof. intros H. split; [exact H|]. intros p Hp. simpl. apply next_free_lt. exact Hp. Qed.

Lemma s3_apply_nodup c o : NoDup (map fst (c_chunks c)) -> NoDup (map fst (c_chunks (fst (s3_apply c o)))).
Proof.
  intros H. destruct o as [p m|p|srcs tgt]; simpl.
  - apply (nodup_aset N.eqb Neqb_spec). exact H.
  - apply nodup_adel. exact H.
  - rewrite s3_complete_eq. cbv zeta.
    destruct (aget N.eqb tgt (c_chunks (fold_left s3_del1 srcs c))) eqn:E; simpl; [|exact H].
    apply (nodup_aset N.eqb Neqb_spec). rewrite s3_fold_del1_chunks. apply (nodup_fold_adel N.eqb). exact H.
Qed.

(* every catalog reached by a history of register / delete / complete has
   duplicate-free keys *)
Lemma s3_run_nodup h : NoDup (map fst (c_chunks (s3_run h))).
Proof.
  apply (fold_left_inv (fun c => NoDup (map fst (c_chunks c)))); [intros c o _; apply s3_apply_nodup|constructor].
Qed.

Definition local_wf (c : lcat) (n : N) : Prop :=
  NoDup (map fst (l_levels c)) /\
  (forall p, In p (map fst (l_levels c)) -> p < n) /\
  (forall p, In p (map fst (l_chunks c)) -> p < n).

Definition local_row (chunks : list (path * cmeta)) (pl : path * N) : list crow :=
  match aget N.eqb (fst pl) chunks with
  | Some m => [mkRow (fst pl) (snd pl) (m_min m) (m_size m)]
  | None => []
  end.

Lemma local_rows_eq c : local_rows c = flat_map (local_row (l_chunks c)) (l_levels c).
Proof. reflexivity. Qed.

Lemma local_rows_in chunks lv r :
  In r (flat_map (local_row chunks) lv) -> In (r_path r, r_level r) lv.
Proof.
  intros H. apply in_flat_map in H as [[p l] [Hin Hr]]. unfold local_row in Hr. simpl in Hr.
  destruct (aget N.eqb p chunks); [|contradiction]. destruct Hr as [<-|[]]. exact Hin.
Qed.

Lemma local_rows_paths chunks lv r : In r (flat_map (local_row chunks) lv) -> In (r_path r) (map fst lv).
Proof. intros H. exact (in_map fst _ _ (local_rows_in _ _ _ H)). Qed.

Lemma local_rows_nodup chunks lv :
  NoDup (map fst lv) -> NoDup (map r_path (flat_map (local_row chunks) lv)).
Proof.
  induction lv as [|[p l] t IH]; simpl; [constructor|]. rewrite NoDup_cons_iff. intros [Hni Hnd].
  unfold local_row at 1. simpl.
  destruct (aget N.eqb p chunks); simpl; [|exact (IH Hnd)].
  constructor; [|exact (IH Hnd)]. intros Hc. apply Hni. apply in_map_iff in Hc as (r & <- & Hr).
  exact (local_rows_paths _ _ _ Hr).
Qed.

Lemma local_wf_rows c n : local_wf c n -> rows_ok (local_rows c) n.
Proof.
  intros [Hnd [Hb _]]. rewrite local_rows_eq. split; [apply local_rows_nodup; exact Hnd|].
  intros r Hr. exact (Hb _ (local_rows_paths _ _ _ Hr)).
Qed.

Lemma local_lev_rows c p :
  NoDup (map fst (l_levels c)) -> In p (map r_path (local_rows c)) ->
  lev_rows (local_rows c) p = aget N.eqb p (l_levels c).
Proof.
  rewrite local_rows_eq. intros Hnd Hp. apply in_map_iff in Hp as (r & <- & Hin).
  rewrite (lev_rows_in _ _ (local_rows_nodup _ _ Hnd) Hin). symmetry.
  exact (In_aget_nodup N.eqb Neqb_spec _ _ _ Hnd (local_rows_in _ _ _ Hin)).
Qed.

Lemma local_delete_chunks c p : l_chunks (local_delete c p) = adel N.eqb p (l_chunks c).
Proof.
  unfold local_delete. destruct (aget N.eqb p (l_chunks c)) eqn:E; simpl; [reflexivity|].
  symmetry. apply (adel_absent N.eqb). exact E.
Qed.

Lemma local_delete_levels c p : l_levels (local_delete c p) = adel N.eqb p (l_levels c).
Proof. unfold local_delete. destruct (aget N.eqb p (l_chunks c)); reflexivity. Qed.

Lemma local_fold_delete_chunks srcs : forall c,
  l_chunks (fold_left local_delete srcs c) = fold_left (fun l p => adel N.eqb p l) srcs (l_chunks c).
Proof. apply fold_left_proj, local_delete_chunks. Qed.

Lemma local_fold_delete_levels srcs : forall c,
  l_levels (fold_left local_delete srcs c) = fold_left (fun l p => adel N.eqb p l) srcs (l_levels c).
Proof. apply fold_left_proj, local_delete_levels. Qed.

(* the rows of the surviving level entries: their chunks survive as well *)
Lemma local_rows_filter srcs chunks t m lv :
  ~ In t (map fst lv) ->
  flat_map (local_row (merged_alist srcs t m chunks)) (filter (keep_not srcs) lv)
  = filter (fun r => negb (memN (r_path r) srcs)) (flat_map (local_row chunks) lv).
Proof.
  intros Ht. induction lv as [|[p l] r IH]; [reflexivity|].
  cbn [filter flat_map]. rewrite filter_app, <- IH by (intros H; apply Ht; right; exact H).
  assert (Hrow : filter (fun r => negb (memN (r_path r) srcs)) (local_row chunks (p, l))
                 = if memN p srcs then [] else local_row chunks (p, l)).
  { unfold local_row. cbn [fst snd].
    destruct (aget N.eqb p chunks); cbn [filter r_path]; destruct (memN p srcs); reflexivity. }
  rewrite Hrow. unfold keep_not at 1. cbn [fst].
  destruct (memN p srcs) eqn:Em; cbn [negb flat_map]; [reflexivity|]. f_equal.
  unfold local_row. cbn [fst snd]. rewrite aget_merged_old; [reflexivity|apply memN_false; exact Em|].
  intros ->. apply Ht. left; reflexivity.
Qed.

Lemma local_merge_ok c t srcs m :
  local_wf c t -> (forall p, In p srcs -> In p (map r_path (local_rows c))) ->
  exists c2, local_complete (local_register c t m) srcs t = Some c2 /\
             local_rows c2 = merged_rows (local_rows c) srcs t m /\ local_wf c2 (t + 1).
Proof.
  intros [Hnd [Hbl Hbc]] Hsub.
  assert (Htl : ~ In t (map fst (l_levels c))) by (intros Hc; specialize (Hbl t Hc); lia).
  assert (Htc : ~ In t (map fst (l_chunks c))) by (intros Hc; specialize (Hbc t Hc); lia).
  assert (Hts : ~ In t srcs).
  { intros Hc. apply Htl. apply Hsub, in_map_iff in Hc as (r & <- & Hin).
    exact (local_rows_paths _ _ _ Hin). }
  unfold local_complete. rewrite local_fold_delete_chunks, local_fold_delete_levels.
  unfold local_register. cbn [l_chunks l_levels].
  rewrite (fold_adel_aset _ _ _ _ Htc Hts), (fold_adel_aset _ _ _ _ Htl Hts),
    (aget_merged_new _ _ _ _ Htc), (aset_merged _ _ _ _ _ Htl).
  eexists. split; [reflexivity|]. split.
  - rewrite local_rows_eq. cbn [l_chunks l_levels]. unfold merged_alist at 2.
    rewrite flat_map_app, (local_rows_filter _ _ _ _ _ Htl). cbn [flat_map]. rewrite app_nil_r.
    unfold merged_rows. f_equal. unfold local_row. cbn [fst snd].
    rewrite (aget_merged_new _ _ _ _ Htc). do 3 f_equal.
    apply max_level_ext. intros p Hp.
    rewrite (aget_aset_other N.eqb Neqb_spec) by (intros ->; exact (Hts Hp)).
    symmetry. exact (local_lev_rows c p Hnd (Hsub p Hp)).
  - split; [|split]; cbn [l_chunks l_levels];
      [apply nodup_merged|apply bound_merged|apply bound_merged]; assumption.
Qed.

Lemma local_l0_ok thr rows : NoDup (map r_path rows) ->
  sel_ok 0 rows (local_l0 thr rows) /\ forall g, In g (local_l0 thr rows) -> g <> [].
Proof. apply l0_groups_ok. Qed.

Lemma local_init_wf c : NoDup (map fst (l_levels c)) -> local_wf c (st_fresh (local_init c)).
Proof.
  intros H. split; [exact H|]. simpl. split; intros p Hp; apply next_free_lt; apply in_or_app; [right|left]; exact Hp.
Qed.

Lemma local_apply_nodup c o :
  NoDup (map fst (l_levels c)) -> NoDup (map fst (l_levels (fst (local_apply c o)))).
Proof.
  intros H. destruct o as [p m|p|srcs tgt]; simpl.
  - apply (nodup_aset N.eqb Neqb_spec). exact H.
  - rewrite local_delete_levels. apply nodup_adel. exact H.
  - unfold local_complete.
    destruct (aget N.eqb tgt (l_chunks (fold_left local_delete srcs c))) eqn:E; simpl; [|exact H].
    apply (nodup_aset N.eqb Neqb_spec). rewrite local_fold_delete_levels. apply (nodup_fold_adel N.eqb). exact H.
Qed.

Lemma local_run_nodup h : NoDup (map fst (l_levels (local_run h))).
Proof.
  apply (fold_left_inv (fun c => NoDup (map fst (l_levels c)))); [intros c o _; apply local_apply_nodup|constructor].
Qed.

Definition s3_Inv (st : cstate cat) : Prop := s3_wf (st_cat st) (st_fresh st).
Definition local_Inv (st : cstate lcat) : Prop := local_wf (st_cat st) (st_fresh st).

(* every state reached from a catalog history is well-formed *)
Theorem s3_reachable_inv (h : list cop) : s3_Inv (s3_init (s3_run h)).
Proof. apply s3_init_wf. apply s3_run_nodup. Qed.
Theorem local_reachable_inv (h : list cop) : local_Inv (local_init (local_run h)).
Proof. apply local_init_wf. apply local_run_nodup. Qed.

(* Each backend meets the four assumptions of the generic cycle; what follows
   are the theorems of Section Generic at the two backends, under the names
   Properties/C20.v uses. *)
Definition s3_run_cycles_inv :=
  run_cycles_inv s3_backend s3_wf s3_wf_rows s3_merge_ok s3_l0_ok s3_level_ok.
Definition local_run_cycles_inv :=
  run_cycles_inv local_backend local_wf local_wf_rows local_merge_ok local_l0_ok local_level_ok.

Definition s3_groups_ok :=
  groups_disjoint_single_level s3_backend s3_wf s3_wf_rows s3_merge_ok s3_l0_ok s3_level_ok.
Definition local_groups_ok :=
  groups_disjoint_single_level local_backend local_wf local_wf_rows local_merge_ok local_l0_ok local_level_ok.

Definition s3_merge_rule :=
  merge_level_rule s3_backend s3_wf s3_wf_rows s3_merge_ok s3_l0_ok s3_level_ok.
Definition local_merge_rule :=
  merge_level_rule local_backend local_wf local_wf_rows local_merge_ok local_l0_ok local_level_ok.

Definition s3_level_monotone :=
  level_monotone s3_backend s3_wf s3_wf_rows s3_merge_ok s3_l0_ok s3_level_ok.
Definition local_level_monotone :=
  level_monotone local_backend local_wf local_wf_rows local_merge_ok local_l0_ok local_level_ok.

Definition s3_no_resurrection :=
  no_resurrection s3_backend s3_wf s3_wf_rows s3_merge_ok s3_l0_ok s3_level_ok.
Definition local_no_resurrection :=
  no_resurrection local_backend local_wf local_wf_rows local_merge_ok local_l0_ok local_level_ok.

Definition s3_converges : converges_stmt s3_backend s3_Inv :=
  converges_all s3_backend s3_wf s3_wf_rows s3_merge_ok s3_l0_ok s3_level_ok.
Definition local_converges : converges_stmt local_backend local_Inv :=
  converges_all local_backend local_wf local_wf_rows local_merge_ok local_l0_ok local_level_ok.

(* the cycle never runs into the `complete_compaction(..)?` error path *)
Definition s3_cycle_no_error :=
  cycle_no_error s3_backend s3_wf s3_wf_rows s3_merge_ok s3_l0_ok s3_level_ok.
Definition local_cycle_no_error :=
  cycle_no_error local_backend local_wf local_wf_rows local_merge_ok local_l0_ok local_level_ok.

(* the selection functions themselves, for every catalog *)
Theorem selection_groups_ok :
  (forall thr rows, NoDup (map r_path rows) -> sel_ok 0 rows (s3_l0 thr rows)) /\
  (forall thr rows, NoDup (map r_path rows) -> sel_ok 0 rows (local_l0 thr rows)) /\
  (forall lvl tgt rows gs, NoDup (map r_path rows) -> s3_level lvl tgt rows = Some gs -> sel_ok lvl rows gs) /\
  (forall lvl tgt rows gs, NoDup (map r_path rows) -> local_level lvl tgt rows = Some gs -> sel_ok lvl rows gs) /\
  (forall ord rows, NoDup (map r_path rows) ->
     NoDup (map r_path (reorder ord rows)) /\ forall r, In r (reorder ord rows) <-> In r rows).
Proof.
  split; [intros thr rows H; apply (s3_l0_ok thr rows H)|].
  split; [intros thr rows H; apply (local_l0_ok thr rows H)|].
  split; [exact s3_level_ok|]. split; [exact local_level_ok|].
  intros ord rows H. split; [apply reorder_nodup; exact H|intros r; apply reorder_In; exact H].
Qed.

Definition ex_H : Z := Consts.S3_L0_BUCKET_NANOS.
Definition ex_meta (mn mx : Z) (sz : N) : cmeta := mkMeta mn mx 1 sz.
Definition ex_oracle (g : list path) : cmeta := mkMeta 0 0 (N.of_nat (length g)) 700.
Definition ex_hist : list cop :=
  [ORegister 1 (ex_meta 10 20 100); ORegister 2 (ex_meta 30 40 100); ORegister 3 (ex_meta 50 60 100);
   ORegister 4 (ex_meta (2 * ex_H) (2 * ex_H + 5) 100)].
Definition ex_in (thr : N) : cinput := mkIn (mkCfg thr 1000 5000 3) [] ex_oracle.

(* threshold 2: chunks 1,2,3 (one hour bucket) merge into chunk 5 at level 1;
   chunk 4 stays; the second cycle changes nothing; both backends agree *)
Example ex_threshold_2 :
  let st := s3_init (s3_run ex_hist) in
  s3_Inv st /\
  filter is_merge (cycle_events s3_backend (ex_in 2) st) = [EMerge 0 [1; 2; 3] 5 (ex_oracle [1; 2; 3]) (Some 1)] /\
  map (fun r => (r_path r, r_level r)) (s3_rows (st_cat (cycle_state s3_backend (ex_in 2) st))) = [(4, 0); (5, 1)] /\
  run_cycles s3_backend [ex_in 2; ex_in 2] st = run_cycles s3_backend [ex_in 2] st /\
  map (fun r => (r_path r, r_level r))
      (local_rows (st_cat (cycle_state local_backend (ex_in 2) (local_init (local_run ex_hist))))) = [(4, 0); (5, 1)].
Proof.
  split; [apply s3_reachable_inv|]. split; [vm_compute; reflexivity|]. split; [vm_compute; reflexivity|].
  split; vm_compute; reflexivity.
Qed.

(* threshold 0, in-memory backend: a single level-0 chunk is rewritten into a
   level-1 chunk, once; afterwards nothing is selectable at level 0 any more.
   The level-1 chunks are then merged by the level-1 pass of the same cycle
   when the target size is reached.  Three merges, all in the first cycle,
   reach the fixpoint, well within the bound of 12. *)
Example ex_threshold_0 :
  let st := local_init (local_run ex_hist) in
  local_Inv st /\
  merges_of (cycle_events local_backend (ex_in 0) st) = 3%nat /\
  map (fun r => (r_path r, r_level r)) (local_rows (st_cat (cycle_state local_backend (ex_in 0) st))) = [(7, 2)] /\
  run_cycles local_backend [ex_in 0; ex_in 0] st = run_cycles local_backend [ex_in 0] st /\
  (measure local_backend st = 12)%nat.
Proof.
  split; [apply local_reachable_inv|]. split; [vm_compute; reflexivity|]. split; [vm_compute; reflexivity|].
  split; vm_compute; reflexivity.
Qed.
