(* Proofs/GcProofs.v — invariants and theorems about Model/Gc.v (C09).

   What a step does to a field is said once per field, in terms of what the
   step `schedules` and `deletes`.  Two invariants
   are carried over all histories: of the state (Sinv: a path with a pending
   entry, or selected by the running pass, has been seen and is out of the
   catalog) and of the history (Hinv: every entry has an origin in it); the
   theorems read them off at the deleting step. *)
From CS Require Import Base.Prelude Base.AList Model.Gc.
From CSGen Require Import Consts.
Open Scope Z_scope.

Lemma In_remove1 q p l : In q (remove1 p l) -> In q l.
Proof.
  induction l as [|y r IH]; simpl; [tauto|].
  destruct (N.eqb p y); simpl; intuition.
Qed.

Lemma In_remove_each q xs : forall l, In q (remove_each xs l) -> In q l.
Proof.
  unfold remove_each. induction xs as [|x r IH]; simpl; intros l H; [assumption|].
  exact (In_remove1 _ _ _ (IH _ H)).
Qed.

Lemma In_add_set q p l : In q (add_set p l) <-> q = p \/ In q l.
Proof.
  unfold add_set. destruct (memN p l) eqn:E.
  - apply memN_In in E. split; [auto|]. intros [->|H]; auto.
  - simpl. split; intros [H|H]; auto.
Qed.

Lemma In_stamped {A B} (t : B) (l0 : list (A * B)) (l : list A) a b :
  In (a, b) (l0 ++ map (fun x => (x, t)) l) <-> In (a, b) l0 \/ In a l /\ b = t.
Proof.
  rewrite in_app_iff, in_map_iff. split.
  - intros [H|[x [E H]]]; [auto|]. inversion E. subst. auto.
  - intros [H|[H ->]]; eauto.
Qed.

Lemma amem_false_iff {V} k (l : list (N * V)) : amem N.eqb k l = false <-> forall v, ~ In (k, v) l.
Proof.
  rewrite <- not_true_iff_false, (amem_true_iff N.eqb Neqb_spec). split.
  - intros H v Hv. apply H. eauto.
  - intros H [v Hv]. exact (H v Hv).
Qed.

Lemma aget_In {V} k (l : list (N * V)) v : aget N.eqb k l = Some v -> In (k, v) l.
Proof. apply (AList.aget_In N.eqb Neqb_spec). Qed.

(* cat_remove and gc_retain are this filter *)
Lemma In_filter_notin {V} (e : N * V) ps l :
  In e (filter (fun '(p, _) => negb (memN p ps)) l) <-> In e l /\ ~ In (fst e) ps.
Proof.
  rewrite filter_In. destruct e as [p v]. simpl. rewrite negb_true_iff, memN_false. tauto.
Qed.

Lemma In_cat_remove e ps c : In e (cat_remove ps c) <-> In e c /\ ~ In (fst e) ps.
Proof. apply In_filter_notin. Qed.

Lemma amem_cat_remove k ps c :
  amem N.eqb k (cat_remove ps c) = amem N.eqb k c && negb (memN k ps).
Proof.
  apply eq_iff_eq_true. rewrite andb_true_iff, negb_true_iff, memN_false, !(amem_true_iff N.eqb Neqb_spec). split.
  - intros [v H]. apply In_cat_remove in H. destruct H as [H Hn]. eauto.
  - intros [[v H] Hn]. exists v. apply In_cat_remove. auto.
Qed.

Lemma cat_remove_nil c : cat_remove [] c = c.
Proof. unfold cat_remove. induction c as [|[p v] r IH]; simpl; [reflexivity|f_equal; exact IH]. Qed.

Lemma In_gc_select p cut pend pinned :
  In p (gc_select cut pend pinned) <->
  exists ts, In (p, ts) pend /\ ts <= cut /\ ~ In p pinned.
Proof.
  unfold gc_select. rewrite in_map_iff. split.
  - intros [[q ts] [<- Hin]]. apply filter_In in Hin.
    rewrite andb_true_iff, Z.leb_le, negb_true_iff, memN_false in Hin. exists ts. exact Hin.
  - intros [ts H]. exists (p, ts). split; [reflexivity|]. apply filter_In.
    rewrite andb_true_iff, Z.leb_le, negb_true_iff, memN_false. exact H.
Qed.

Lemma In_gc_retain e sel pend : In e (gc_retain sel pend) <-> In e pend /\ ~ In (fst e) sel.
Proof. apply In_filter_notin. Qed.

Lemma In_get_chunks p mn mx c s e :
  In (p, (mn, mx)) (get_chunks c s e) -> In (p, (mn, mx)) c /\ mn <= e /\ s <= mx.
Proof.
  unfold get_chunks. destruct (e <? s); [intros []|].
  rewrite filter_In. unfold overlaps. intros [H1 H2]. apply andb_true_iff in H2.
  rewrite Z.leb_le, Z.geb_le in H2. tauto.
Qed.

Lemma In_ret_select p mn mx cut c :
  In (p, (mn, mx)) (ret_select cut c) -> In (p, (mn, mx)) c /\ mx < cut.
Proof.
  unfold ret_select. rewrite filter_In. intros [H1 H2]. apply Z.ltb_lt in H2.
  apply In_get_chunks in H1. tauto.
Qed.

Lemma In_ret_paths p cut c :
  In p (map fst (ret_select cut c)) -> exists mn mx, In (p, (mn, mx)) c /\ mx < cut.
Proof.
  rewrite in_map_iff. intros [[q [mn mx]] [<- H]]. apply In_ret_select in H. exists mn, mx. exact H.
Qed.

Lemma load_merge_sub file : forall pend e,
  In e (load_merge file pend) -> In e pend \/ In e file.
Proof.
  unfold load_merge. induction file as [|[p ts] r IH]; simpl; intros pend e H; [auto|].
  apply IH in H. destruct H as [H|H]; [|auto].
  destruct (amem N.eqb p pend); [auto|].
  apply in_app_or in H. destruct H as [H|[H|[]]]; auto.
Qed.

Lemma load_merge_keeps file : forall pend e, In e pend -> In e (load_merge file pend).
Proof.
  unfold load_merge. induction file as [|[p ts] r IH]; simpl; intros pend e H; [auto|].
  apply IH. destruct (amem N.eqb p pend); [auto|]. apply in_or_app. auto.
Qed.

Lemma load_merge_has file : forall pend p ts,
  In (p, ts) file -> amem N.eqb p (load_merge file pend) = true.
Proof.
  induction file as [|[q tq] r IH]; simpl; intros pend p ts H; [destruct H|].
  destruct H as [H|H]; [|exact (IH _ p ts H)].
  inversion H; subst q tq. apply (amem_true_iff N.eqb Neqb_spec). destruct (amem N.eqb p pend) eqn:E.
  - apply (amem_true_iff N.eqb Neqb_spec) in E. destruct E as [v Hv]. exists v. apply (load_merge_keeps r). assumption.
  - exists ts. apply (load_merge_keeps r). apply in_or_app. simpl. auto.
Qed.

Lemma load_merge_covers file pend p ts :
  In (p, ts) file -> exists ts', In (p, ts') (load_merge file pend) /\ (In (p, ts') pend \/ In (p, ts') file).
Proof.
  intros H. apply (load_merge_has file pend) in H. apply (amem_true_iff N.eqb Neqb_spec) in H. destruct H as [ts' H].
  exists ts'. split; [assumption|]. apply load_merge_sub. assumption.
Qed.

(* P holds of every prefix of b.  `unref_throughout` and `foreign_in` below
   say "at every state since" by this formula, written out in their last
   conjunct, so the two lemmas apply to it as it stands; they carry it along
   one element at a time. *)
Definition all_prefixes {A} (P : list A -> Prop) (b : list A) : Prop :=
  forall b1 b2, b = b1 ++ b2 -> P b1.

Lemma all_prefixes_nil {A} (P : list A -> Prop) : P [] -> all_prefixes P [].
Proof. intros H [|y b1] b2 E; [exact H|discriminate E]. Qed.

Lemma all_prefixes_snoc {A} (P : list A -> Prop) b x :
  all_prefixes P b -> P (b ++ [x]) -> all_prefixes P (b ++ [x]).
Proof.
  intros Hall Hx b1 b2 E. destruct b2 as [|z b2 _] using rev_ind.
  - rewrite app_nil_r in E. subst b1. exact Hx.
  - rewrite app_assoc in E. apply app_inj_tail in E. destruct E as [E _]. exact (Hall b1 b2 E).
Qed.

Lemma run_app c a b s : run c (a ++ b) s = run c b (run c a s).
Proof. unfold run. apply fold_left_app. Qed.

Lemma run_snoc c h x s : run c (h ++ [x]) s = step c (run c h s) x.
Proof. exact (run_app c h [x] s). Qed.

Lemma ok_from_app c a : forall b s,
  ok_from c s (a ++ b) = ok_from c s a && ok_from c (run c a s) b.
Proof.
  induction a as [|x r IH]; simpl; intros b s; [reflexivity|].
  rewrite IH, andb_assoc. reflexivity.
Qed.

Lemma ok_from_snoc c h x s :
  ok_from c s (h ++ [x]) = ok_from c s h && guard (run c h s) x.
Proof. rewrite ok_from_app. simpl. rewrite andb_true_r. reflexivity. Qed.

(* Every step is an update of s whichever way its tests go: the tests can be
   pushed into the fields they guard.  A query step writes the pin registry,
   the query table and the query log; a filter, a delete and the end of a
   pass each write their part of what `with_gc` writes; a swap, whether or
   not it goes through, is a `with_cat_sched` of what it schedules.  After
   `rewrite step_framed; destruct x` a field that the label leaves alone
   reduces to that of s, so the lemmas below, one per field, have cases only
   for the labels that write their field. *)
Definition framed (c : gcfg) (s : st) (x : label) : st :=
  let s' := step c s x in
  match x with
  | Swap _ _ =>
      let ps := schedules c s x in
      with_cat_sched s (cat_remove ps (cat s)) (ps ++ ever s) (pending s ++ map (fun p => (p, now s)) ps) (rlog s)
  | GcFilter => with_gc s (pending s) (objs s) (gc_active s') (gcsel s') (gcall s') (gc_cutoff s') (dlog s)
  | GcDelete _ => with_gc s (pending s) (objs s') (gc_active s) (gcsel s') (gcall s) (gc_cutoff s) (dlog s')
  | GcEnd => with_gc s (pending s') (objs s) (gc_active s') (gcsel s) (gcall s') (gc_cutoff s) (dlog s)
  | GcAtomic => with_gc s (pending s') (objs s') (gc_active s') (gcsel s') (gcall s') (gc_cutoff s') (dlog s')
  | QGet _ _ _ | QStale _ _ | QRead _ => with_query s (pins s) (queries s') (qlog s')
  | QPin _ | QUnpin _ => with_query s (pins s') (queries s') (qlog s')
  | _ => s'
  end.

Lemma step_framed c s x : step c s x = framed c s x.
Proof.
  destruct s as [t w ct ev pe di sn pi ob act sel al cut qs dl rl ql]. destruct x; simpl; try reflexivity.
  - (* Swap: one that fails schedules nothing *)
    destruct (amem N.eqb tgt (cat_remove srcs ct)); [reflexivity|]. rewrite cat_remove_nil, app_nil_r. reflexivity.
  - (* GcFilter *) destruct act; [reflexivity|]. destruct (gc_select _ _ _); reflexivity.
  - (* GcDelete *) destruct act; [|reflexivity]. simpl. destruct (memN p sel); reflexivity.
  - (* GcEnd: while deletes are outstanding nothing moves *) destruct act; [destruct sel|]; reflexivity.
  - (* GcAtomic *) destruct act; reflexivity.
  - (* QGet: a query id already in use is ignored *) destruct (amem N.eqb q qs); reflexivity.
  - (* QStale *) destruct (amem N.eqb q qs); reflexivity.
  - (* QPin: ignored unless the query is there and in the state for it *)
    destruct (aget N.eqb q qs) as [[ps []]|]; reflexivity.
  - (* QRead *) destruct (aget N.eqb q qs) as [[ps []]|]; reflexivity.
  - (* QUnpin *) destruct (aget N.eqb q qs) as [[ps []]|]; reflexivity.
Qed.

Lemma now_step c s x : (exists d, x = Tick d) \/ now (step c s x) = now s.
Proof.
  rewrite step_framed. destruct x; try (right; reflexivity).
  - (* Tick *) left. eauto.
Qed.

Lemma now_mono c s x : tick_nonneg x = true -> now s <= now (step c s x).
Proof.
  destruct (now_step c s x) as [[d ->]|E]; [|lia].
  simpl. intros T. apply Z.leb_le in T. lia.
Qed.

Lemma schedules_now c s x p : In p (schedules c s x) -> now (step c s x) = now s.
Proof. destruct (now_step c s x) as [[d ->]|E]; [intros []|trivial]. Qed.

Lemma cat_step c s x :
  (exists p mn mx, x = Register p mn mx) \/ cat (step c s x) = cat_remove (schedules c s x) (cat s).
Proof.
  (* most labels schedule nothing and keep the catalog *)
  rewrite step_framed. destruct x; try (right; exact (eq_sym (cat_remove_nil (cat s)))).
  - (* Register *) left. eauto.
  - (* Swap *) right. reflexivity.
  - (* Retention *) right. reflexivity.
Qed.

Lemma cat_step_gain c s x p :
  amem N.eqb p (cat (step c s x)) = true ->
  amem N.eqb p (cat s) = true \/ exists mn mx, x = Register p mn mx.
Proof.
  destruct (cat_step c s x) as [[q [mn [mx ->]]]|E].
  - simpl. rewrite (amem_aset N.eqb Neqb_spec), orb_true_iff, N.eqb_eq. intros [->|H]; eauto.
  - rewrite E, amem_cat_remove, andb_true_iff. tauto.
Qed.

Lemma cat_step_loss c s x p :
  amem N.eqb p (cat s) = true -> amem N.eqb p (cat (step c s x)) = false -> In p (schedules c s x).
Proof.
  intros H. destruct (cat_step c s x) as [[q [mn [mx ->]]]|E].
  - simpl. rewrite (amem_aset N.eqb Neqb_spec), H, orb_true_r. discriminate.
  - rewrite E, amem_cat_remove, H. simpl. rewrite negb_false_iff. apply memN_In.
Qed.

Lemma schedules_out_of_cat c s x p :
  In p (schedules c s x) -> amem N.eqb p (cat (step c s x)) = false.
Proof.
  destruct (cat_step c s x) as [[q [mn [mx ->]]]|E]; [intros []|].
  intros H. apply memN_In in H. rewrite E, amem_cat_remove, H. apply andb_false_r.
Qed.

Lemma In_schedules c s x p :
  In p (schedules c s x) ->
  (exists srcs tgt, x = Swap srcs tgt /\ In p srcs) \/
  (x = Retention /\ In p (map fst (ret_select (ret_cutoff c (bclock s)) (cat s)))).
Proof.
  destruct x; try (intros []); simpl.
  - (* Swap *) destruct (amem N.eqb tgt (cat_remove srcs (cat s))); [eauto|intros []].
  - (* Retention *) auto.
Qed.

Lemma ever_step c s x p : In p (ever s) -> In p (ever (step c s x)).
Proof.
  intros H. rewrite step_framed. destruct x; try exact H; simpl.
  - (* DiskEdit *) apply in_or_app. auto.
  - (* Register *) apply In_add_set. auto.
  - (* Swap *) apply in_or_app. auto.
Qed.

(* a path that was registered or scheduled once and is out of the catalog
   stays out: registrations use fresh paths *)
Lemma retired_step c s x p :
  guard s x = true -> In p (ever s) /\ amem N.eqb p (cat s) = false ->
  In p (ever (step c s x)) /\ amem N.eqb p (cat (step c s x)) = false.
Proof.
  intros G [E H]. split; [apply ever_step; assumption|].
  apply not_true_iff_false. intros A. apply cat_step_gain in A.
  destruct A as [A|[mn [mx ->]]]; [congruence|].
  simpl in G. apply negb_true_iff, memN_false in G. contradiction.
Qed.

Lemma gcsel_step c s x p :
  In p (gcsel (step c s x)) ->
  (In p (gcsel s) /\ gc_cutoff (step c s x) = gc_cutoff s) \/
  (x = GcFilter /\ In p (gc_select (now s - g_grace c) (pending s) (pins s)) /\
   gc_cutoff (step c s x) = now s - g_grace c).
Proof.
  rewrite step_framed. destruct x; try (intros H; left; split; [exact H|reflexivity]); simpl.
  - (* GcFilter *) destruct (gc_active s); [auto|]. destruct (gc_select _ _ _); simpl; auto.
  - (* GcDelete *) destruct (gc_active s && memN p0 (gcsel s)); simpl; [|auto].
    intros H. apply In_remove1 in H. auto.
  - (* GcAtomic *) destruct (gc_active s); simpl; [auto|intros []].
  - (* Restart *) intros [].
Qed.

(* a deleted path was selected at the cut-off of the pass, pass_time - grace:
   by an earlier filter (first case), or by this very step, an atomic pass
   that reads the clock now (second case) *)
Lemma deletes_selected c s x p :
  In p (deletes c s x) ->
  (In p (gcsel s) /\ gc_cutoff s = pass_time c s x - g_grace c) \/
  (In p (gc_select (now s - g_grace c) (pending s) (pins s)) /\ pass_time c s x = now s).
Proof.
  destruct x; try (intros []); simpl.
  - (* GcDelete *) destruct (gc_active s && memN p0 (gcsel s)) eqn:E; [|intros []].
    apply andb_true_iff in E. destruct E as [_ E]. apply memN_In in E. intros [<-|[]]. left. split; [assumption|lia].
  - (* GcAtomic *) destruct (gc_active s); [intros []|auto].
Qed.

Theorem object_removed_only_by_gc c s x p :
  In p (objs s) -> ~ In p (objs (step c s x)) -> In p (deletes c s x).
Proof.
  intros Hin. rewrite step_framed. destruct x; try (intros Hn; destruct (Hn Hin)); simpl.
  - (* Register *) rewrite In_add_set. tauto.
  - (* GcDelete *) destruct (gc_active s && memN p0 (gcsel s)); simpl; [|tauto].
    rewrite In_removeN. destruct (N.eq_dec p p0) as [->|Hn]; [auto|tauto].
  - (* GcAtomic *) destruct (gc_active s); simpl; [tauto|]. rewrite filter_In. intros H.
    destruct (memN p (gc_select (now s - g_grace c) (pending s) (pins s))) eqn:M.
    + apply memN_In. assumption.
    + exfalso. auto.
Qed.

Lemma dlog_step c s x :
  dlog (step c s x) = rev (del_events (now s) (pins s) (deletes c s x)) ++ dlog s.
Proof.
  rewrite step_framed. destruct x; try reflexivity; simpl.
  - (* GcDelete *) destruct (gc_active s && memN p (gcsel s)); reflexivity.
  - (* GcAtomic *) destruct (gc_active s); reflexivity.
Qed.


Section Hist.
  Variable c : gcfg.
  Variable t0 : Z.

  Definition runi (h : list label) : st := run c h (init t0).

  Lemma runi_snoc h x : runi (h ++ [x]) = step c (runi h) x.
  Proof. apply run_snoc. Qed.

  (* The theorems speak of a history by splitting it at the step they are
     about (`origin_in` combines the other three predicates). *)

  (* p has been out of the catalog at every state since a state whose clock
     read at most l *)
  Definition unref_throughout (h : list label) (p : path) (l : Z) : Prop :=
    exists a b, h = a ++ b /\ now (runi a) <= l /\
      forall b1 b2, b = b1 ++ b2 -> amem N.eqb p (cat (runi (a ++ b1))) = false.

  (* p was handed to schedule_deletion by some step of the history *)
  Definition scheduled_in (h : list label) (p : path) : Prop :=
    exists a x b, h = a ++ x :: b /\ In p (schedules c (runi a) x).

  (* the entry (p, ts) was written into pending-deletions.json from outside,
     and the catalog has not referenced p at any state since *)
  Definition foreign_in (h : list label) (p : path) (ts : Z) : Prop :=
    exists a es b, h = a ++ DiskEdit es :: b /\ In (p, ts) es /\
      forall b1 b2, b = b1 ++ b2 -> amem N.eqb p (cat (runi (a ++ DiskEdit es :: b1))) = false.

  (* where a pending entry (p, ts) comes from: p was scheduled by the
     compactor and has been out of the catalog since a state whose clock read
     at most ts (the state after the scheduling step is one: the entry carries
     that reading), or the entry was written from outside *)
  Definition origin_in (h : list label) (p : path) (ts : Z) : Prop :=
    (unref_throughout h p ts /\ scheduled_in h p) \/ foreign_in h p ts.

  (* The invariant cannot carry these: it is proved one step at a time, and a
     split of h says nothing handy about h ++ [x].  It carries the same four
     notions as inductive predicates that grow with the history (begun at some
     step, then kept by every later one), and the theorems pass from these to
     the split form at the very end (`origin_spec`).  Only that direction is
     needed. *)
  Inductive unref : list label -> path -> Z -> Prop :=
  | U_here h p l : now (runi h) <= l -> amem N.eqb p (cat (runi h)) = false -> unref h p l
  | U_snoc h x p l : unref h p l -> amem N.eqb p (cat (runi (h ++ [x]))) = false -> unref (h ++ [x]) p l.

  Inductive sched : list label -> path -> Prop :=
  | S_here h x p : In p (schedules c (runi h) x) -> sched (h ++ [x]) p
  | S_snoc h x p : sched h p -> sched (h ++ [x]) p.

  Inductive foreign : list label -> path -> Z -> Prop :=
  | F_here h es p ts : In (p, ts) es -> amem N.eqb p (cat (runi (h ++ [DiskEdit es]))) = false ->
                       foreign (h ++ [DiskEdit es]) p ts
  | F_snoc h x p ts : foreign h p ts -> amem N.eqb p (cat (runi (h ++ [x]))) = false ->
                      foreign (h ++ [x]) p ts.

  Definition origin (h : list label) (p : path) (ts : Z) : Prop :=
    (unref h p ts /\ sched h p) \/ foreign h p ts.

  Lemma unref_mono h p l l' : unref h p l -> l <= l' -> unref h p l'.
  Proof.
    induction 1; intros Hl.
    - apply U_here; [lia|assumption].
    - apply U_snoc; auto.
  Qed.

  Lemma unref_spec h p l : unref h p l -> unref_throughout h p l.
  Proof.
    induction 1 as [h p l H1 H2|h x p l H IH H2].
    - exists h, []. rewrite app_nil_r. split; [reflexivity|]. split; [assumption|].
      apply all_prefixes_nil. rewrite app_nil_r. assumption.
    - destruct IH as [a [b [-> [Hn Hall]]]].
      exists a, (b ++ [x]). split; [rewrite app_assoc; reflexivity|]. split; [assumption|].
      apply all_prefixes_snoc; [assumption|]. rewrite app_assoc. assumption.
  Qed.

  Lemma sched_spec h p : sched h p -> scheduled_in h p.
  Proof.
    induction 1 as [h x p H|h x p H IH].
    - exists h, x, []. auto.
    - destruct IH as [a [y [b [-> Hin]]]]. exists a, y, (b ++ [x]).
      split; [|assumption]. rewrite <- app_assoc. reflexivity.
  Qed.

  Lemma foreign_spec h p ts : foreign h p ts -> foreign_in h p ts.
  Proof.
    induction 1 as [h es p ts H1 H2|h x p ts H IH H2].
    - exists h, es, []. split; [reflexivity|]. split; [assumption|].
      apply all_prefixes_nil. assumption.
    - destruct IH as [a [es [b [-> [Hin Hall]]]]].
      exists a, es, (b ++ [x]). split; [rewrite <- app_assoc; reflexivity|]. split; [assumption|].
      apply all_prefixes_snoc; [assumption|]. rewrite <- app_assoc in H2. assumption.
  Qed.

  Lemma origin_spec h p ts : origin h p ts -> origin_in h p ts.
  Proof.
    intros [[H1 H2]|H]; [left; split; [apply unref_spec|apply sched_spec]; assumption|].
    right. apply foreign_spec. assumption.
  Qed.

  Lemma origin_snoc h x p ts :
    origin h p ts -> amem N.eqb p (cat (runi (h ++ [x]))) = false -> origin (h ++ [x]) p ts.
  Proof.
    intros [[H1 H2]|H] Hc.
    - left. split; [apply U_snoc|apply S_snoc]; assumption.
    - right. apply F_snoc; assumption.
  Qed.

  Lemma origin_new h x p :
    In p (schedules c (runi h) x) -> amem N.eqb p (cat (runi (h ++ [x]))) = false ->
    origin (h ++ [x]) p (now (runi h)).
  Proof.
    intros Hs Hc. left. split; [|apply S_here; assumption].
    apply U_here; [|assumption]. rewrite runi_snoc, (schedules_now _ _ _ _ Hs). lia.
  Qed.

  (* a selected path: some entry at most as late as the pass's cut-off justifies it *)
  Definition good (h : list label) (p : path) (l : Z) : Prop := exists ts, ts <= l /\ origin h p ts.

  Definition entries (s : st) (p : path) (ts : Z) : Prop :=
    In (p, ts) (pending s) \/ In (p, ts) (disk s) \/ In (p, ts) (psnap s).

  (* The state invariant.  A path named by an entry (in memory, in the file or
     in the bytes about to be written) has been seen and is out of the catalog;
     so is a path the running pass has selected; and `ever` covers the catalog,
     which is what makes a fresh path fresh. *)
  Definition Sinv (s : st) : Prop :=
    (forall p ts, entries s p ts -> In p (ever s) /\ amem N.eqb p (cat s) = false) /\
    (forall p, In p (gcsel s) -> In p (ever s) /\ amem N.eqb p (cat s) = false) /\
    (forall p, amem N.eqb p (cat s) = true -> In p (ever s)).

  Lemma sinv_entry s p ts : Sinv s -> entries s p ts -> In p (ever s) /\ amem N.eqb p (cat s) = false.
  Proof. intros S. exact (proj1 S p ts). Qed.

  Lemma sinv_selected s p : Sinv s -> In p (gcsel s) -> In p (ever s) /\ amem N.eqb p (cat s) = false.
  Proof. intros S. exact (proj1 (proj2 S) p). Qed.

  Lemma sinv_cat s p : Sinv s -> amem N.eqb p (cat s) = true -> In p (ever s).
  Proof. intros S. exact (proj2 (proj2 S) p). Qed.

  (* The history invariant: every entry has an origin in the history, and
     every selected path an entry no later than the cut-off of the pass. *)
  Definition Hinv (h : list label) (s : st) : Prop :=
    (forall p ts, entries s p ts -> origin h p ts) /\
    (forall p, In p (gcsel s) -> good h p (gc_cutoff s)).

  Lemma hinv_entry h s p ts : Hinv h s -> entries s p ts -> origin h p ts.
  Proof. intros H. exact (proj1 H p ts). Qed.

  Lemma hinv_selected h s p : Hinv h s -> In p (gcsel s) -> good h p (gc_cutoff s).
  Proof. intros H. exact (proj2 H p). Qed.

  Lemma entries_step s x p ts :
    entries (step c s x) p ts ->
    entries s p ts \/ (In p (schedules c s x) /\ ts = now s) \/
    (exists es, x = DiskEdit es /\ In (p, ts) es).
  Proof.
    unfold entries. rewrite step_framed. destruct x; try (intros H; left; exact H); simpl.
    - (* DiskEdit *)
      intros [H|[H|H]]; auto. apply in_app_or in H. destruct H as [H|H]; auto. right. right. eauto.
    - (* Swap: a new entry names a scheduled path and is stamped `now s` *)
      intros [H|H]; [|auto]. apply In_stamped in H. destruct H as [H|H]; auto.
    - (* GcEnd *) destruct (gc_active s); [|auto]. destruct (gcsel s); simpl; [|auto].
      intros [H|H]; [apply In_gc_retain in H; destruct H|]; auto.
    - (* GcAtomic *) destruct (gc_active s); simpl; [auto|].
      intros [H|H]; [apply In_gc_retain in H; destruct H|]; auto.
    - (* Retention: likewise *)
      intros [H|H]; [|auto]. apply In_stamped in H. destruct H as [H|H]; auto.
    - (* PersistSnap *) intros [H|[H|H]]; auto.
    - (* PersistPut *) intros [H|[H|H]]; auto.
    - (* Restart *) intros [[]|[H|[]]]; auto.
    - (* Load *) intros [H|H]; [apply load_merge_sub in H; destruct H|]; auto.
  Qed.

  (* what a step schedules is in `ever` afterwards: a swap records its sources,
     a retention pass takes its paths from the catalog *)
  Lemma schedules_ever s x p : Sinv s -> In p (schedules c s x) -> In p (ever (step c s x)).
  Proof.
    intros S. rewrite step_framed. destruct x; try (intros []); simpl.
    - (* Swap *) intros H. apply in_or_app. auto.
    - (* Retention *) intros H. apply (sinv_cat _ _ S). apply In_ret_paths in H. destruct H as [mn [mx [H _]]].
      apply (amem_true_iff N.eqb Neqb_spec). eauto.
  Qed.

  Lemma diskedit_retired s es p ts :
    guard s (DiskEdit es) = true -> In (p, ts) es ->
    In p (ever (step c s (DiskEdit es))) /\ amem N.eqb p (cat (step c s (DiskEdit es))) = false.
  Proof.
    simpl. intros G Hin. rewrite forallb_forall in G. specialize (G _ Hin). simpl in G.
    apply negb_true_iff in G. split; [|assumption].
    apply in_or_app. left. apply (in_map fst _ _ Hin).
  Qed.

  (* what a filter selects has a pending entry at most as late as its cut-off:
     so each invariant says of it what it says of entries *)
  Lemma sinv_select s l pinned p :
    Sinv s -> In p (gc_select l (pending s) pinned) -> In p (ever s) /\ amem N.eqb p (cat s) = false.
  Proof.
    intros S Hs. apply In_gc_select in Hs. destruct Hs as [ts [Hp _]].
    apply (sinv_entry s p ts S). left. assumption.
  Qed.

  Lemma hinv_select h s l pinned p :
    Hinv h s -> In p (gc_select l (pending s) pinned) -> good h p l.
  Proof.
    intros H Hs. apply In_gc_select in Hs. destruct Hs as [ts [Hp [Hle _]]].
    exists ts. split; [assumption|]. apply (hinv_entry h s p ts H). left. assumption.
  Qed.

  Lemma sinv_step s x : Sinv s -> guard s x = true -> Sinv (step c s x).
  Proof.
    intros S G. split; [|split].
    - (* entries *)
      intros p ts He. destruct (entries_step _ _ _ _ He) as [Ho|[[Hs ->]|[es [-> Hin]]]].
      + apply retired_step; [assumption|exact (sinv_entry _ _ _ S Ho)].
      + split; [apply schedules_ever|apply schedules_out_of_cat]; assumption.
      + apply diskedit_retired with ts; assumption.
    - (* selected *)
      intros p Hin. apply retired_step; [assumption|].
      destruct (gcsel_step _ _ _ _ Hin) as [[Ho _]|[_ [Hs _]]];
        [exact (sinv_selected _ _ S Ho)|exact (sinv_select _ _ _ _ S Hs)].
    - (* catalog *)
      intros p Hc. apply cat_step_gain in Hc. destruct Hc as [Hc|[mn [mx ->]]].
      + apply ever_step. exact (sinv_cat _ _ S Hc).
      + simpl. apply In_add_set. auto.
  Qed.

  (* the state invariant of the successor says that whatever is an entry or
     selected there is out of its catalog: that is all the `origin`
     constructors ask for *)
  Lemma hinv_step h x :
    Hinv h (runi h) -> Sinv (runi (h ++ [x])) -> Hinv (h ++ [x]) (runi (h ++ [x])).
  Proof.
    intros H S. split.
    - (* entries *)
      intros p ts He. destruct (sinv_entry _ _ _ S He) as [_ Hc]. rewrite runi_snoc in He.
      destruct (entries_step _ _ _ _ He) as [Ho|[[Hs ->]|[es [-> Hin]]]].
      + apply origin_snoc; [exact (hinv_entry _ _ _ _ H Ho)|assumption].
      + apply origin_new; assumption.
      + right. apply F_here; assumption.
    - (* selected: by an earlier filter, or by this step *)
      intros p Hin. destruct (sinv_selected _ _ S Hin) as [_ Hc]. rewrite runi_snoc in Hin |- *.
      assert (J : good h p (gc_cutoff (step c (runi h) x))).
      { destruct (gcsel_step _ _ _ _ Hin) as [[Ho Hcut]|[_ [Hs Hcut]]]; rewrite Hcut;
          [exact (hinv_selected _ _ _ H Ho)|exact (hinv_select _ _ _ _ _ H Hs)]. }
      destruct J as [ts [Hle Hor]]. exists ts. split; [assumption|apply origin_snoc; assumption].
  Qed.

  Lemma sinv_init : Sinv (init t0).
  Proof.
    unfold Sinv, entries, init. simpl. split; [|split]; try tauto.
    intros p H. discriminate H.
  Qed.

  Lemma invariants h :
    ok_from c (init t0) h = true -> Sinv (runi h) /\ Hinv h (runi h).
  Proof.
    induction h as [|x h IH] using rev_ind; intros Hok.
    - split; [apply sinv_init|]. unfold Hinv, entries, runi, init. simpl. tauto.
    - rewrite ok_from_snoc in Hok. apply andb_true_iff in Hok. destruct Hok as [Hok G].
      destruct (IH Hok) as [S H].
      assert (S' : Sinv (runi (h ++ [x]))) by (rewrite runi_snoc; apply sinv_step; assumption).
      split; [assumption|apply hinv_step; assumption].
  Qed.

  (* gc_after_grace, for arbitrary clock steps and foreign entries: whatever a
     step deletes is justified by an entry (p, ts) whose own timestamp lies at
     least the grace period before the clock reading the pass took at its
     filter; either the compactor scheduled p, and p has been out of the
     catalog since a state whose clock read at most ts, or the entry was
     written into the file from outside and p has not been referenced since;
     p is not referenced now *)
  Theorem gc_after_grace h x p :
    ok_from c (init t0) (h ++ [x]) = true ->
    In p (deletes c (runi h) x) ->
    amem N.eqb p (cat (runi h)) = false /\
    exists ts, ts + g_grace c <= pass_time c (runi h) x /\ origin_in h p ts.
  Proof.
    intros Hok Hd. rewrite ok_from_snoc in Hok. apply andb_true_iff in Hok. destruct Hok as [Hok _].
    destruct (invariants h Hok) as [S H].
    assert (J : amem N.eqb p (cat (runi h)) = false /\ good h p (pass_time c (runi h) x - g_grace c)).
    { destruct (deletes_selected _ _ _ _ Hd) as [[Hs <-]|[Hs ->]].
      - (* selected by an earlier filter *)
        split; [apply (sinv_selected _ _ S Hs)|exact (hinv_selected _ _ _ H Hs)].
      - (* selected by this step *)
        split; [apply (sinv_select _ _ _ _ S Hs)|exact (hinv_select _ _ _ _ _ H Hs)]. }
    destruct J as [Hc [ts [Hle Hor]]]. split; [assumption|].
    exists ts. split; [lia|apply origin_spec; assumption].
  Qed.

  (* while the wall clock is never stepped back, the reading the running pass
     took at its filter (its cut-off plus the grace period) is not later than
     the present one *)
  Lemma cutoff_le_now h :
    forallb tick_nonneg h = true ->
    forall p, In p (gcsel (runi h)) -> gc_cutoff (runi h) + g_grace c <= now (runi h).
  Proof.
    induction h as [|x h IH] using rev_ind; intros Hm p Hin.
    - destruct Hin.
    - rewrite forallb_app in Hm. apply andb_true_iff in Hm. destruct Hm as [Hm Hx].
      simpl in Hx. rewrite andb_true_r in Hx.
      rewrite runi_snoc in *. pose proof (now_mono c (runi h) x Hx) as Hn.
      destruct (gcsel_step _ _ _ _ Hin) as [[Ho Hcut]|[_ [_ Hcut]]]; rewrite Hcut; [|lia].
      specialize (IH Hm p Ho). lia.
  Qed.

  (* the statement in the property's words, for a clock that is never stepped
     back: a deleted file that the compactor scheduled has been unreferenced
     since a clock reading at least one grace period before the reading at the
     delete; for an entry written from outside only its own timestamp is that
     old (ts is not used in the first disjunct) *)
  Theorem gc_after_grace_monotone h x p :
    ok_from c (init t0) (h ++ [x]) = true ->
    forallb tick_nonneg h = true ->
    In p (deletes c (runi h) x) ->
    exists ts, ts + g_grace c <= now (runi h) /\
      ((unref_throughout h p (now (runi h) - g_grace c) /\ scheduled_in h p) \/ foreign_in h p ts).
  Proof.
    intros Hok Hm Hd. destruct (gc_after_grace h x p Hok Hd) as [_ [ts [Hle Hor]]].
    assert (Hpt : pass_time c (runi h) x <= now (runi h)).
    { destruct (deletes_selected _ _ _ _ Hd) as [[Hs Hcut]|[_ Hpt]]; [|lia].
      pose proof (cutoff_le_now h Hm p Hs). lia. }
    exists ts. split; [lia|].
    destruct Hor as [[Hu Hs]|Hf]; [left|right; assumption].
    split; [|assumption].
    destruct Hu as [a [b [E [Hn Hall]]]]. exists a, b. split; [assumption|]. split; [lia|assumption].
  Qed.

  Theorem deleted_was_scheduled h x p :
    ok_from c (init t0) (h ++ [x]) = true ->
    In p (deletes c (runi h) x) ->
    scheduled_in h p \/ exists ts, foreign_in h p ts.
  Proof.
    intros Hok Hd. destruct (gc_after_grace h x p Hok Hd) as [_ [ts [_ Hor]]].
    destruct Hor as [[_ Hs]|Hf]; [left|right; exists ts]; assumption.
  Qed.
End Hist.

Definition all_unpinned (s : st) : Prop := forall e, In e (dlog s) -> d_pinned e = false.
Definition sel_unpinned (s : st) : Prop := forall p, In p (gcsel s) -> ~ In p (pins s).

Lemma pins_step c s x q :
  In q (pins (step c s x)) ->
  In q (pins s) \/ exists k ps, x = QPin k /\ aget N.eqb k (queries s) = Some (mkQ ps false) /\ In q ps.
Proof.
  rewrite step_framed. destruct x; try (intros H; left; exact H); simpl.
  - (* QPin *) destruct (aget N.eqb q0 (queries s)) as [[ps []]|] eqn:E; simpl; auto.
    intros H. apply in_app_or in H. destruct H as [H|H]; [right; exists q0, ps|]; auto.
  - (* QUnpin *) destruct (aget N.eqb q0 (queries s)) as [[ps []]|]; simpl; auto.
    intros H. apply In_remove_each in H. auto.
Qed.

Lemma pin_in_window_iff s x :
  pin_in_window s x = true <->
  exists k ps p, x = QPin k /\ aget N.eqb k (queries s) = Some (mkQ ps false) /\ In p ps /\ In p (gcsel s).
Proof.
  split.
  - destruct x; simpl; try discriminate.
    destruct (aget N.eqb q (queries s)) as [[ps []]|] eqn:E; try discriminate.
    intros H. apply existsb_exists in H. destruct H as [p [Hp Hm]]. apply memN_In in Hm.
    exists q, ps, p. auto.
  - intros [k [ps [p [-> [E [Hp Hs]]]]]]. simpl. rewrite E. apply existsb_exists.
    exists p. split; [assumption|apply memN_In; assumption].
Qed.

Lemma pin_step_inv c s x :
  pin_in_window s x = false -> sel_unpinned s -> all_unpinned s ->
  sel_unpinned (step c s x) /\ all_unpinned (step c s x).
Proof.
  intros K SU AU. split.
  - intros p Hin Hpin. apply pins_step in Hpin.
    destruct (gcsel_step _ _ _ _ Hin) as [[Hsel _]|[-> [Hsel _]]].
    + destruct Hpin as [Hpin|[k [ps [-> [E Hq]]]]]; [exact (SU p Hsel Hpin)|].
      (* a pin of a selected path is what the hypothesis rules out *)
      apply not_true_iff_false in K. destruct K. apply pin_in_window_iff. exists k, ps, p. auto.
    + (* the filter selects no pinned path and pins nothing *)
      destruct Hpin as [Hpin|[k [ps [Hx _]]]]; [|discriminate].
      apply In_gc_select in Hsel. destruct Hsel as [ts [_ [_ Hn]]]. contradiction.
  - intros e He. rewrite dlog_step in He. apply in_app_or in He.
    destruct He as [He|He]; [|apply AU; assumption].
    apply in_rev, in_map_iff in He. destruct He as [q [<- Hq]]. simpl. apply memN_false.
    destruct (deletes_selected _ _ _ _ Hq) as [[Hs _]|[Hs _]]; [apply SU; assumption|].
    apply In_gc_select in Hs. destruct Hs as [ts [_ [_ Hn]]]. assumption.
Qed.

Lemma modulo_known_gen c h : forall s,
  known_class_from c s h = false -> sel_unpinned s -> all_unpinned s ->
  sel_unpinned (run c h s) /\ all_unpinned (run c h s).
Proof.
  induction h as [|x r IH]; simpl; intros s K SU AU; [auto|].
  apply orb_false_iff in K. destruct K as [K1 K2].
  destruct (pin_step_inv c s x K1 SU AU) as [SU' AU'].
  apply (IH _ K2 SU' AU').
Qed.

(* C09_modulo_known: outside the known class no delete ever hits a pinned path *)
Theorem modulo_known c t0 h :
  known_class_from c (init t0) h = false -> all_unpinned (run c h (init t0)).
Proof.
  intros K. apply (modulo_known_gen c h (init t0) K); intros ? [].
Qed.

(* the atomic variant: histories without the split steps are never in the
   class, since nothing is ever selected *)
Lemma atomic_not_known c h : forall s,
  forallb (fun x => negb (is_split_gc x)) h = true -> gcsel s = [] -> known_class_from c s h = false.
Proof.
  induction h as [|x r IH]; simpl; intros s F E; [reflexivity|].
  apply andb_true_iff in F. destruct F as [Fx F]. apply orb_false_iff. split.
  - apply not_true_iff_false. intros W. apply pin_in_window_iff in W.
    destruct W as [k [ps [p [_ [_ [_ Hp]]]]]]. rewrite E in Hp. destruct Hp.
  - apply IH; [assumption|].
    destruct (gcsel (step c s x)) as [|q l] eqn:Eq; [reflexivity|].
    assert (Hq : In q (gcsel (step c s x))) by (rewrite Eq; left; reflexivity).
    destruct (gcsel_step c s x q Hq) as [[H _]|[-> _]].
    + (* selected before *) rewrite E in H. destruct H.
    + (* a filter *) discriminate Fx.
Qed.

Theorem pin_safe_atomic c t0 h :
  forallb (fun x => negb (is_split_gc x)) h = true -> all_unpinned (run c h (init t0)).
Proof. intros F. apply modulo_known. apply atomic_not_known; [assumption|reflexivity]. Qed.

(* pins of chunk lists that are still in the catalog are never in the class:
   a selected path is out of the catalog *)
Lemma fresh_pin_not_in_window s x :
  Sinv s -> pin_is_fresh s x = true -> pin_in_window s x = false.
Proof.
  intros S F. apply not_true_iff_false. intros W. apply pin_in_window_iff in W.
  destruct W as [k [ps [p [-> [E [Hp Hs]]]]]]. destruct (sinv_selected _ _ S Hs) as [_ Hc].
  simpl in F. rewrite E, forallb_forall in F. specialize (F p Hp). congruence.
Qed.

Lemma fresh_pins_not_known c h : forall s,
  Sinv s -> ok_from c s h = true -> fresh_pins_from c s h = true -> known_class_from c s h = false.
Proof.
  induction h as [|x r IH]; simpl; intros s S Hok F; [reflexivity|].
  apply andb_true_iff in Hok, F. destruct Hok as [G Hok], F as [Fx F].
  rewrite (fresh_pin_not_in_window s x S Fx). apply IH; [apply sinv_step| |]; assumption.
Qed.

Theorem pin_safe_fresh_views c t0 h :
  ok_from c (init t0) h = true -> fresh_pins_from c (init t0) h = true ->
  all_unpinned (run c h (init t0)).
Proof.
  intros Hok F. apply modulo_known. apply fresh_pins_not_known; [apply sinv_init| |]; assumption.
Qed.

Theorem retention_only_old c s p :
  amem N.eqb p (cat s) = true -> amem N.eqb p (cat (step c s Retention)) = false ->
  exists mn mx, In (p, (mn, mx)) (cat s) /\ mx < ret_cutoff c (bclock s).
Proof. intros H1 H2. apply In_ret_paths. exact (cat_step_loss c s Retention p H1 H2). Qed.

Theorem catalog_removal_causes c s x p :
  amem N.eqb p (cat s) = true -> amem N.eqb p (cat (step c s x)) = false ->
  (exists srcs tgt, x = Swap srcs tgt /\ In p srcs) \/
  (x = Retention /\ exists mn mx, In (p, (mn, mx)) (cat s) /\ mx < ret_cutoff c (bclock s)).
Proof.
  intros H1 H2. destruct (In_schedules _ _ _ _ (cat_step_loss _ _ _ _ H1 H2)) as [H|[-> _]]; [auto|].
  right. split; [reflexivity|]. apply retention_only_old; assumption.
Qed.

Lemma rlog_step c s x e : In e (rlog (step c s x)) -> In e (rlog s) \/ r_max e < r_cutoff e.
Proof.
  rewrite step_framed. destruct x; try (intros H; left; exact H); simpl.
  - (* Retention *) intros H. apply in_app_or in H. destruct H as [H|H]; [right|auto].
    apply in_rev, in_map_iff in H. destruct H as [[q [mn mx]] [<- Hin]].
    apply In_ret_select in Hin. simpl. tauto.
Qed.

Lemma retention_log_inv c h : forall s,
  (forall e, In e (rlog s) -> r_max e < r_cutoff e) ->
  forall e, In e (rlog (run c h s)) -> r_max e < r_cutoff e.
Proof.
  induction h as [|x r IH]; simpl; intros s H; [assumption|].
  apply IH. intros e He. destruct (rlog_step _ _ _ _ He); auto.
Qed.

Theorem retention_log_only_old c t0 h e :
  In e (rlog (run c h (init t0))) -> r_max e < r_cutoff e.
Proof. apply retention_log_inv. intros e' []. Qed.

Theorem disk_survives_restart c s p ts :
  In (p, ts) (disk s) ->
  exists ts', In (p, ts') (pending (run c [Restart; Load] s)) /\ In (p, ts') (disk s).
Proof.
  intros H. simpl. destruct (load_merge_covers (disk s) [] p ts H) as [ts' [H1 [[]|H2]]].
  exists ts'. auto.
Qed.

(* every path in the list when PersistSnap serialises it is pending again
   after the PUT, a restart and the load, with a timestamp from that list *)
Theorem persisted_survive_restart c s p ts :
  In (p, ts) (pending s) ->
  let s1 := run c [PersistSnap; PersistPut; Restart; Load] s in
  exists ts', In (p, ts') (pending s1) /\ In (p, ts') (pending s).
Proof. exact (disk_survives_restart c (run c [PersistSnap; PersistPut] s) p ts). Qed.

Theorem pending_entry_collected c s p ts :
  In (p, ts) (pending s) -> gc_active s = false -> ts + g_grace c <= now s -> ~ In p (pins s) ->
  let s1 := step c s GcFilter in
  In p (gcsel s1) /\ gc_active s1 = true /\
  In p (deletes c s1 (GcDelete p)) /\ ~ In p (objs (step c s1 (GcDelete p))).
Proof.
  intros Hin A Hg Hp. simpl. rewrite A.
  assert (Hs : In p (gc_select (now s - g_grace c) (pending s) (pins s))).
  { apply In_gc_select. exists ts. split; [assumption|]. split; [lia|assumption]. }
  destruct (gc_select (now s - g_grace c) (pending s) (pins s)) as [|a r] eqn:E; [destruct Hs|].
  simpl. split; [assumption|]. split; [reflexivity|].
  assert (M : memN p (a :: r) = true) by (apply memN_In; assumption).
  simpl in M. rewrite M. simpl. split; [auto|]. rewrite In_removeN. tauto.
Qed.

Theorem persisted_then_deleted c s p ts d :
  In (p, ts) (pending s) -> (forall q t, In (q, t) (pending s) -> t <= now s) ->
  g_grace c <= d -> ~ In p (pins s) ->
  let s1 := run c [PersistSnap; PersistPut; Restart; Load; Tick d; GcFilter] s in
  In p (deletes c s1 (GcDelete p)) /\ ~ In p (objs (step c s1 (GcDelete p))).
Proof.
  intros Hin Hts Hd Hp.
  destruct (persisted_survive_restart c s p ts Hin) as [ts' [H1 H2]].
  change [PersistSnap; PersistPut; Restart; Load; Tick d; GcFilter]
    with ([PersistSnap; PersistPut; Restart; Load] ++ [Tick d; GcFilter]).
  rewrite run_app.
  (* only these fields of the restarted state matter; keep it folded *)
  assert (Ha : gc_active (run c [PersistSnap; PersistPut; Restart; Load] s) = false) by reflexivity.
  assert (Hpi : pins (run c [PersistSnap; PersistPut; Restart; Load] s) = pins s) by reflexivity.
  assert (Hn : now (run c [PersistSnap; PersistPut; Restart; Load] s) = now s) by reflexivity.
  revert H1 Ha Hpi Hn. generalize (run c [PersistSnap; PersistPut; Restart; Load] s).
  intros s0 H1 Ha Hpi Hn.
  apply (pending_entry_collected c (step c s0 (Tick d)) p ts'); simpl; try assumption.
  - specialize (Hts p ts' H2). lia.
  - rewrite Hpi. assumption.
Qed.

Definition cfg0 : gcfg := mkCfg 0 1 default_skew.

(* filter . pin . delete: the delete hits a path that is pinned at that instant *)
Definition toctou_history : list label :=
  [Register 1%N 0 10; Register 2%N 0 10; QGet 7%N 0 10; Swap [1%N] 2%N; GcFilter; QPin 7%N;
   GcDelete 1%N; QRead 7%N].

Lemma toctou_refutes :
  exists e, In e (dlog (run cfg0 toctou_history (init 100))) /\ d_pinned e = true.
Proof. eexists. split; [vm_compute; left; reflexivity|reflexivity]. Qed.

Lemma toctou_is_known : known_class_from cfg0 (init 100) toctou_history = true.
Proof. vm_compute. reflexivity. Qed.

Lemma toctou_query_loses_file :
  qlog (run cfg0 toctou_history (init 100)) = [mkQev 7%N [1%N]].
Proof. vm_compute. reflexivity. Qed.

(* the selection of the code before the repair removes a straddling chunk *)
Lemma overlap_selection_refuted :
  exists cutoff c p mn mx, In (p, (mn, mx)) (ret_select_overlap cutoff c) /\ ~ (mx < cutoff).
Proof.
  exists 100, [(1%N, (50, 200))], 1%N, 50, 200. split; [vm_compute; auto|lia].
Qed.

(* ... and, on this example, misses a chunk that lies before the epoch, which
   the repaired selection takes *)
Lemma overlap_selection_skips_negative :
  ret_select_overlap 100 [(1%N, (-50, -10))] = [] /\ ret_select 100 [(1%N, (-50, -10))] <> [].
Proof. split; vm_compute; [reflexivity|discriminate]. Qed.

Definition cfg5 : gcfg := mkCfg 5 1 default_skew.

(* gc_after_grace / deleted_was_scheduled: an admissible history that reaches a delete *)
Example gc_after_grace_nonvacuous :
  let h := [Register 1%N 0 10; Register 2%N 0 10; Swap [1%N] 2%N; Tick 5; GcFilter] in
  ok_from cfg5 (init 100) (h ++ [GcDelete 1%N]) = true /\
  In 1%N (deletes cfg5 (runi cfg5 100 h) (GcDelete 1%N)) /\
  (* one tick earlier the filter selects nothing *)
  gcsel (runi cfg5 100 [Register 1%N 0 10; Register 2%N 0 10; Swap [1%N] 2%N; Tick 4; GcFilter]) = [].
Proof. vm_compute. auto. Qed.

(* modulo_known: a history with a pin, outside the class, that deletes something;
   the pinned path is skipped by the filter and collected after the unpin *)
Example modulo_known_nonvacuous :
  let h := [Register 1%N 0 10; Register 2%N 0 10; Register 3%N 0 10; QGet 7%N 0 10; QPin 7%N;
            Swap [1%N; 2%N] 3%N; QStale 8%N [2%N]; QPin 8%N; QUnpin 7%N; GcFilter; GcDelete 1%N; GcEnd;
            QRead 8%N; QUnpin 8%N; GcFilter; GcDelete 2%N; GcEnd] in
  known_class_from cfg0 (init 100) h = false /\
  ok_from cfg0 (init 100) h = true /\
  map d_path (dlog (run cfg0 h (init 100))) = [2%N; 1%N] /\
  qlog (run cfg0 h (init 100)) = [mkQev 8%N []].
Proof. vm_compute. auto. Qed.

Example pin_safe_atomic_nonvacuous :
  let h := [Register 1%N 0 10; Register 2%N 0 10; Swap [1%N] 2%N; QStale 7%N [1%N]; QPin 7%N; GcAtomic;
            QUnpin 7%N; GcAtomic] in
  forallb (fun x => negb (is_split_gc x)) h = true /\
  map d_path (dlog (run cfg0 h (init 100))) = [1%N] /\
  objs (run cfg0 h (init 100)) = [2%N].
Proof. vm_compute. auto. Qed.

Example pin_safe_fresh_views_nonvacuous :
  let h := [Register 1%N 0 10; Register 2%N 0 10; QGet 7%N 0 10; QPin 7%N; Swap [1%N] 2%N; GcFilter;
            QRead 7%N; QUnpin 7%N; GcFilter; GcDelete 1%N; GcEnd] in
  ok_from cfg0 (init 100) h = true /\ fresh_pins_from cfg0 (init 100) h = true /\
  map d_path (dlog (run cfg0 h (init 100))) = [1%N] /\ qlog (run cfg0 h (init 100)) = [mkQev 7%N []].
Proof. vm_compute. auto. Qed.

(* retention: one day; an old chunk goes, a chunk straddling the cut-off and a
   chunk that ends exactly at the cut-off stay, a chunk before the epoch goes *)
Definition day : Z := Consts.GC_NANOS_PER_DAY.
Example retention_nonvacuous :
  let now0 := 10 * day in
  let cut := ret_cutoff cfg0 now0 in
  let h := [Register 1%N (cut - 100) (cut - 1); Register 2%N (cut - 100) (cut + 100);
            Register 3%N (cut - 100) cut; Register 4%N (-50) (-10); Retention] in
  map fst (cat (run cfg0 h (init now0))) = [2%N; 3%N] /\
  map fst (pending (run cfg0 h (init now0))) = [1%N; 4%N] /\
  map r_path (rlog (run cfg0 h (init now0))) = [4%N; 1%N].
Proof. vm_compute. auto. Qed.

Example persisted_then_deleted_nonvacuous :
  let s := run cfg5 [Register 1%N 0 10; Register 2%N 0 10; Swap [1%N] 2%N] (init 100) in
  In (1%N, 100) (pending s) /\ (forall q t, In (q, t) (pending s) -> t <= now s) /\ ~ In 1%N (pins s) /\
  objs (run cfg5 [PersistSnap; PersistPut; Restart; Load; Tick 5; GcFilter; GcDelete 1%N] s) = [2%N].
Proof.
  vm_compute. split; [auto|]. split; [|split; [tauto|reflexivity]].
  intros q t [H|[]]. inversion H. subst. discriminate.
Qed.

(* entries dated ahead of the local clock, and a clock stepped back: the entry
   waits until the clock has passed its own timestamp by the grace period *)
Example future_entry_waits :
  let pre := [DiskEdit [(9%N, 125); (8%N, 40)]; Restart; Load] in
  ok_from cfg5 (init 100) (pre ++ [GcFilter; GcDelete 8%N; GcEnd; Tick 29; GcFilter; Tick 1; GcFilter]) = true /\
  (* at 100: only the entry due long ago is selected, not the one dated 25 ahead *)
  gcsel (run cfg5 (pre ++ [GcFilter]) (init 100)) = [8%N] /\
  (* at 129 = 125 + 5 - 1: still nothing *)
  gcsel (run cfg5 (pre ++ [GcFilter; GcDelete 8%N; GcEnd; Tick 29; GcFilter]) (init 100)) = [] /\
  (* at 130: due *)
  gcsel (run cfg5 (pre ++ [GcFilter; GcDelete 8%N; GcEnd; Tick 29; GcFilter; Tick 1; GcFilter]) (init 100)) = [9%N].
Proof. vm_compute. auto. Qed.

Example clock_stepped_back_waits :
  let pre := [Register 1%N 0 10; Register 2%N 0 10; Swap [1%N] 2%N; Tick (-30)] in
  ok_from cfg5 (init 100) pre = true /\ forallb tick_nonneg pre = false /\
  gcsel (run cfg5 (pre ++ [Tick 34; GcFilter]) (init 100)) = [] /\
  gcsel (run cfg5 (pre ++ [Tick 35; GcFilter]) (init 100)) = [1%N].
Proof. vm_compute. auto. Qed.

(* the retention cut-off comes from the bounded clock: after the wall clock is
   stepped back it does not move back *)
Example retention_clock_never_backwards :
  let now0 := 10 * day in
  let cut := ret_cutoff cfg0 now0 in
  let h := [Retention; Tick (-5); Register 1%N (cut - 100) (cut - 1); Retention] in
  map fst (cat (run cfg0 h (init now0))) = [] /\ hw (run cfg0 h (init now0)) = now0 + 1.
Proof. vm_compute. auto. Qed.
