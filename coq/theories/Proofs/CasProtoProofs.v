(* Proofs/CasProtoProofs.v — linearizability of the generic CAS retry machine
   (Base/CasProto.v), proved once for an arbitrary [decide], for every schedule,
   any number of clients and any programs. *)
From CS Require Import Base.Prelude Base.CasProto.

Section CasProofs.
  Variables V Op Out : Type.
  Variable decide : Z -> Op -> option V -> decision V Out.
  Variable extra_gets : nat.
  Variable max_retries : nat.
  Variable v0 : option V.
  Variable now0 : Z.
  Variable progs : nat -> list Op.

  Notation commitT := (commit V Op Out).
  Notation clientT := (client V Op Out).
  Notation sysT := (sys V Op Out).
  Notation pcT := (pc V Op Out).
  Notation stepD := (step decide extra_gets max_retries).
  Notation runD := (run decide extra_gets max_retries).

  Lemma last_val_app (v : option V) (log : list commitT) k :
    last_val v (log ++ [k]) = Some (k_val k).
  Proof. unfold last_val. rewrite fold_left_app. reflexivity. Qed.

  Lemma last_val_none (v : option V) (log : list commitT) :
    last_val v log = None -> v = None /\ log = [].
  Proof.
    destruct log as [|k r] using rev_ind; [intros H; split; [exact H|reflexivity]|].
    rewrite last_val_app. discriminate.
  Qed.

  Lemma last_put_app t (log : list commitT) k : last_put t (log ++ [k]) = k_put k.
  Proof. unfold last_put. rewrite fold_left_app. reflexivity. Qed.

  (* a chain can be cut anywhere: the second part starts from the version the
     first part wrote last *)
  Lemma chain_app_iff (pre post : list commitT) : forall prev,
    chain decide prev (pre ++ post) <->
    chain decide prev pre /\ chain decide (last_val prev pre) post.
  Proof.
    induction pre as [|k r IH]; intros prev; cbn [chain app].
    - split; [intros H; split; [exact I|exact H]|intros [_ H]; exact H].
    - rewrite IH, !and_assoc. reflexivity.
  Qed.

  Lemma times_chain_app_iff (pre post : list commitT) : forall t,
    times_chain t (pre ++ post) <->
    times_chain t pre /\ times_chain (last_put t pre) post.
  Proof.
    induction pre as [|k r IH]; intros t; cbn [times_chain app].
    - split; [intros H; split; [exact I|exact H]|intros [_ H]; exact H].
    - rewrite IH, !and_assoc. reflexivity.
  Qed.

  Lemma successes_app (d : list (Op * fin Out)) x :
    successes (d ++ [x]) =
    successes d ++ match snd x with FCommit o => [(fst x, o)] | _ => [] end.
  Proof. unfold successes. rewrite flat_map_app. simpl. rewrite app_nil_r. reflexivity. Qed.

  Lemma by_client_app c (log : list commitT) k :
    by_client c (log ++ [k]) = by_client c log ++ (if Nat.eqb (k_client k) c then [k] else []).
  Proof. unfold by_client. rewrite filter_app. simpl. destruct (Nat.eqb (k_client k) c); reflexivity. Qed.

  Lemma hist_last (log : list commitT) : hist v0 log (last_val v0 log).
  Proof.
    destruct log as [|k r] using rev_ind; [left; reflexivity|].
    right. exists k. split; [apply in_or_app; right; left; reflexivity|apply last_val_app].
  Qed.

  Lemma hist_mono (log : list commitT) k p : hist v0 log p -> hist v0 (log ++ [k]) p.
  Proof.
    intros [H|[k' [Hin Hp]]]; [left; exact H|].
    right. exists k'. split; [apply in_or_app; left; exact Hin|exact Hp].
  Qed.

  (* what holds of a client between two of its requests.  Parked before its PUT
     (AfterLoad): its body decided Commit at time dnow, not in the future, on
     the snapshot; if the PUT would go through now, nobody has PUT since dnow;
     the snapshot's ETag has been given out, and while the stored object carries
     that ETag it is that very version (ETags are not reused); a snapshot
     "absent" is only taken of an object absent initially.  Loading (the
     further GETs of a first load): the first GET found no object. *)
  Definition pc_ok (cur : option (obj V)) (fresh : N) (now : Z) (log : list commitT) (p : pcT) : Prop :=
    match p with
    | AfterLoad op att snap dnow v' o =>
        decide dnow op (option_map o_val snap) = Commit v' o /\
        (dnow <= now)%Z /\
        (put_ok snap cur = true -> (last_put now0 log <= dnow)%Z) /\
        match snap with
        | Some ob => (o_ver ob < fresh)%N /\
                     (forall ob', cur = Some ob' -> o_ver ob = o_ver ob' -> o_val ob = o_val ob')
        | None => v0 = None
        end
    | Loading _ _ _ => v0 = None
    | _ => True
    end.

  (* every FAbort result is decide's answer to a version that existed *)
  Definition done_ok (log : list commitT) (d : list (Op * fin Out)) : Prop :=
    forall op o, In (op, FAbort o) d ->
      exists now prev, hist v0 log prev /\ decide now op prev = Abort o.

  Set Implicit Arguments.
  Record cl_inv (cur : option (obj V)) (fresh : N) (now : Z) (log : list commitT)
         (c : nat) (cl : clientT) : Prop := mkClInv {
    ci_pc : pc_ok cur fresh now log (c_pc cl);
    ci_succ : map op_out (by_client c log) = successes (c_done cl);
    ci_prog : map fst (c_done cl) ++ inflight (c_pc cl) ++ c_todo cl = progs c;
    ci_abort : done_ok log (c_done cl) }.

  Record Inv (s : sysT) : Prop := mkInv {
    inv_chain : chain decide v0 (s_log s);
    inv_last : cur_val s = last_val v0 (s_log s);
    inv_ver : forall ob, s_cur s = Some ob -> (o_ver ob < s_fresh s)%N;
    inv_times : times_chain now0 (s_log s);
    inv_now : (last_put now0 (s_log s) <= s_now s)%Z;
    inv_cl : forall c, cl_inv (s_cur s) (s_fresh s) (s_now s) (s_log s) c (s_cl s c) }.
  Unset Implicit Arguments.

  Lemma inv_init : Inv (init_sys v0 now0 progs).
  Proof.
    constructor; simpl.
    - exact I.
    - unfold cur_val; simpl. destruct v0; reflexivity.
    - intros ob H. destruct v0; simpl in H; [|discriminate]. inversion H; subst; simpl. lia.
    - exact I.
    - unfold last_put; simpl. lia.
    - intros c. constructor; simpl.
      + exact I.
      + reflexivity.
      + reflexivity.
      + intros op o [].
  Qed.

  Lemma inv_absent s : Inv s -> s_cur s = None -> v0 = None.
  Proof.
    intros HI Hc. pose proof (inv_last HI) as Hl. unfold cur_val in Hl. rewrite Hc in Hl. simpl in Hl.
    symmetry in Hl. apply last_val_none in Hl. tauto.
  Qed.

  Lemma done_ok_mono log k d : done_ok log d -> done_ok (log ++ [k]) d.
  Proof.
    intros H op o Hin. destruct (H op o Hin) as [n [p [Hh Hd]]].
    exists n, p. split; [apply hist_mono; exact Hh|exact Hd].
  Qed.

  Lemma done_ok_app log d op r :
    done_ok log d ->
    (forall o, r = FAbort o -> exists now prev, hist v0 log prev /\ decide now op prev = Abort o) ->
    done_ok log (d ++ [(op, r)]).
  Proof.
    intros H Hr op' o' Hin. apply in_app_or in Hin. destruct Hin as [Hin|[Heq|[]]]; [exact (H _ _ Hin)|].
    inversion Heq; subst. apply Hr. reflexivity.
  Qed.

  (* the client moves on within its operation, or to the operation it starts *)
  Lemma cl_inv_pc cur fresh now log c cl p todo :
    cl_inv cur fresh now log c cl ->
    pc_ok cur fresh now log p ->
    inflight p ++ todo = inflight (c_pc cl) ++ c_todo cl ->
    cl_inv cur fresh now log c (mkClient p todo (c_done cl)).
  Proof.
    intros [_ Hsucc Hprog Hab] Hp Hfl. constructor; simpl; try assumption.
    rewrite Hfl. exact Hprog.
  Qed.

  (* the operation in flight ends without a PUT *)
  Lemma cl_inv_fail cur fresh now log c cl todo op r :
    cl_inv cur fresh now log c cl ->
    inflight (c_pc cl) ++ c_todo cl = op :: todo ->
    (forall o, r <> FCommit o) ->
    (forall o, r = FAbort o -> exists now prev, hist v0 log prev /\ decide now op prev = Abort o) ->
    cl_inv cur fresh now log c (mkClient Idle todo (c_done cl ++ [(op, r)])).
  Proof.
    intros [_ Hsucc Hprog Hab] Hfl Hr Ha. constructor; simpl.
    - exact I.
    - rewrite successes_app, Hsucc. destruct r as [o| |]; [destruct (Hr o); reflexivity| |]; symmetry; apply app_nil_r.
    - rewrite map_app, <- app_assoc, <- Hprog, Hfl. reflexivity.
    - apply done_ok_app; assumption.
  Qed.

  Lemma inv_set_client s c x :
    Inv s -> cl_inv (s_cur s) (s_fresh s) (s_now s) (s_log s) c x -> Inv (set_client s c x).
  Proof.
    intros HI Hx.
    refine (mkInv (set_client s c x) (inv_chain HI) (inv_last HI) (inv_ver HI) (inv_times HI) (inv_now HI) _).
    intros c'. simpl. unfold upd. destruct (Nat.eqb_spec c' c) as [->|_]; [exact Hx|exact (inv_cl HI c')].
  Qed.

  (* the body runs to its PUT (or to its early return) on a snapshot that is
     either the current object or "absent" seen by the first GET of the load *)
  Lemma decided_ok s c cl todo op att snap :
    Inv s ->
    cl_inv (s_cur s) (s_fresh s) (s_now s) (s_log s) c cl ->
    inflight (c_pc cl) ++ c_todo cl = op :: todo ->
    (snap = s_cur s \/ (snap = None /\ v0 = None)) ->
    cl_inv (s_cur s) (s_fresh s) (s_now s) (s_log s) c (decided decide s cl todo op att snap).
  Proof.
    intros HI Hcl Hfl Hsnap. unfold decided.
    destruct (decide (s_now s) op (option_map o_val snap)) as [v' o|o] eqn:Hd.
    - (* Commit: parked before the PUT *)
      apply cl_inv_pc; [exact Hcl| |symmetry; exact Hfl].
      split; [exact Hd|]. split; [lia|]. split; [intros _; apply (inv_now HI)|].
      destruct snap as [ob|].
      + destruct Hsnap as [Hs|[Hs _]]; [|discriminate].
        split; [apply (inv_ver HI); symmetry; exact Hs|].
        intros ob' Hc _. rewrite <- Hs in Hc. inversion Hc; reflexivity.
      + destruct Hsnap as [Hs|[_ Hs]]; [|exact Hs]. apply (inv_absent s HI). symmetry. exact Hs.
    - (* Abort: the operation is over, nothing written *)
      apply cl_inv_fail; try assumption; [intros o'; discriminate|].
      intros o' Ho. inversion Ho; subst o'. exists (s_now s), (option_map o_val snap). split; [|exact Hd].
      destruct Hsnap as [Hs|[Hs Hv]]; subst snap.
      + fold (cur_val s). rewrite (inv_last HI). apply hist_last.
      + left. symmetry. exact Hv.
  Qed.

  Lemma do_get_cases s cl todo op att :
    do_get decide extra_gets s cl todo op att = decided decide s cl todo op att (s_cur s) \/
    (s_cur s = None /\
     do_get decide extra_gets s cl todo op att = mkClient (Loading op att extra_gets) todo (c_done cl)).
  Proof.
    unfold do_get. destruct (s_cur s) as [ob|]; [left; reflexivity|].
    destruct extra_gets; [left; reflexivity|right; split; reflexivity].
  Qed.

  Lemma do_get_ok s c cl todo op att :
    Inv s ->
    cl_inv (s_cur s) (s_fresh s) (s_now s) (s_log s) c cl ->
    inflight (c_pc cl) ++ c_todo cl = op :: todo ->
    cl_inv (s_cur s) (s_fresh s) (s_now s) (s_log s) c (do_get decide extra_gets s cl todo op att).
  Proof.
    intros HI Hcl Hfl. destruct (do_get_cases s cl todo op att) as [E|[Hc E]]; rewrite E.
    - apply decided_ok; try assumption. left. reflexivity.
    - apply cl_inv_pc; [exact Hcl|exact (inv_absent s HI Hc)|symmetry; exact Hfl].
  Qed.

  Lemma do_get_single s cl todo op att :
    do_get decide 0 s cl todo op att = decided decide s cl todo op att (s_cur s).
  Proof. unfold do_get. destruct (s_cur s); reflexivity. Qed.

  (* ETags are never reused: a conditional PUT that goes through replaces the
     very version its client loaded *)
  Lemma put_ok_same_val {cur fresh now log op att snap dnow v' o} :
    pc_ok cur fresh now log (AfterLoad op att snap dnow v' o) ->
    put_ok snap cur = true -> option_map o_val snap = option_map o_val cur.
  Proof.
    intros [_ [_ [_ Hsnap]]] Hput.
    destruct snap as [a|], cur as [b|]; simpl in Hput; try discriminate; [|reflexivity].
    apply N.eqb_eq in Hput. simpl. f_equal. apply (proj2 Hsnap b); [reflexivity|exact Hput].
  Qed.

  Lemma pc_ok_tick cur fresh now now' log p :
    (now <= now')%Z -> pc_ok cur fresh now log p -> pc_ok cur fresh now' log p.
  Proof.
    intros Hle. destruct p as [|op att k|op att snap dnow v' o|op att]; simpl; try tauto.
    intros [Hd [Hdn Hrest]]. split; [exact Hd|]. split; [lia|exact Hrest].
  Qed.

  (* a successful PUT of another client leaves a parked client consistent:
     its remembered ETag can never match again *)
  Lemma pc_ok_commit cur fresh now log k v' p :
    (forall ob, cur = Some ob -> (o_ver ob < fresh)%N) ->
    pc_ok cur fresh now log p ->
    pc_ok (Some (mkObj fresh v')) (N.succ fresh) now (log ++ [k]) p.
  Proof.
    intros Hver. destruct p as [|op att kk|op att snap dnow w o|op att]; simpl; try tauto.
    intros [Hd [Hdn [_ Hsnap]]]. split; [exact Hd|]. split; [exact Hdn|].
    destruct snap as [ob|]; simpl.
    - destruct Hsnap as [Hlt _]. split.
      + intros Heq. apply N.eqb_eq in Heq. lia.
      + split; [lia|]. intros ob' Heq Hv. inversion Heq; subst ob'. simpl in Hv. lia.
    - split; [discriminate|exact Hsnap].
  Qed.

  Lemma cl_inv_commit_other cur fresh now log k v' c cl :
    (forall ob, cur = Some ob -> (o_ver ob < fresh)%N) ->
    k_client k <> c ->
    cl_inv cur fresh now log c cl ->
    cl_inv (Some (mkObj fresh v')) (N.succ fresh) now (log ++ [k]) c cl.
  Proof.
    intros Hver Hk [A B C D]. constructor.
    - apply (pc_ok_commit cur); assumption.
    - apply Nat.eqb_neq in Hk. rewrite by_client_app, Hk, app_nil_r. exact B.
    - exact C.
    - apply done_ok_mono. exact D.
  Qed.

  (* the PUT of the operation in flight goes through as commit k *)
  Lemma cl_inv_commit_self cur fresh now log k v' c cl op o :
    k_client k = c -> op_out k = (op, o) ->
    inflight (c_pc cl) ++ c_todo cl = op :: c_todo cl ->
    cl_inv cur fresh now log c cl ->
    cl_inv (Some (mkObj fresh v')) (N.succ fresh) now (log ++ [k]) c
           (mkClient Idle (c_todo cl) (c_done cl ++ [(op, FCommit o)])).
  Proof.
    intros Hk Hout Hfl [_ B C D]. constructor; simpl.
    - exact I.
    - rewrite by_client_app, Hk, Nat.eqb_refl, map_app, successes_app, B. simpl. rewrite Hout. reflexivity.
    - rewrite map_app, <- app_assoc, <- C, Hfl. reflexivity.
    - apply done_ok_app; [apply done_ok_mono; exact D|discriminate].
  Qed.

  Lemma inv_step s l : Inv s -> Inv (stepD s l).
  Proof.
    intros HI. destruct l as [c|d]; simpl.
    2:{ (* Tick: only the clock moves *)
      refine (mkInv (stepD s (Tick d)) (inv_chain HI) (inv_last HI) (inv_ver HI) (inv_times HI) _ _); simpl.
      - pose proof (inv_now HI). lia.
      - intros c. pose proof (inv_cl HI c) as Hc.
        constructor; [|exact (ci_succ Hc)|exact (ci_prog Hc)|exact (ci_abort Hc)].
        apply (pc_ok_tick _ _ (s_now s)); [lia|exact (ci_pc Hc)]. }
    pose proof (inv_cl HI c) as Hcl. pose proof (ci_pc Hcl) as Hp.
    destruct (c_pc (s_cl s c)) as [|op att k|op att snap dnow v' o|op att] eqn:Hpc.
    - (* Idle *)
      destruct (c_todo (s_cl s c)) as [|op rest] eqn:Htodo; [exact HI|].
      apply inv_set_client, do_get_ok; try assumption. rewrite Hpc, Htodo. reflexivity.
    - (* Loading: the object was absent, so v0 = None *)
      assert (Hlast : cl_inv (s_cur s) (s_fresh s) (s_now s) (s_log s) c
                             (decided decide s (s_cl s c) (c_todo (s_cl s c)) op att None)).
      { apply decided_ok; try assumption; [rewrite Hpc; reflexivity|right; split; [reflexivity|exact Hp]]. }
      (* k = 0 and k = 1 both stand for the last GET of the load *)
      destruct k as [|[|k']]; (apply inv_set_client; [exact HI|]); [exact Hlast|exact Hlast|].
      apply cl_inv_pc; [exact Hcl|exact Hp|rewrite Hpc; reflexivity].
    - (* AfterLoad: the conditional PUT *)
      pose proof (put_ok_same_val Hp) as Hsame.
      destruct Hp as [Hd [Hdn [Hlp _]]].
      assert (Hfl : inflight (c_pc (s_cl s c)) ++ c_todo (s_cl s c) = op :: c_todo (s_cl s c))
        by (rewrite Hpc; reflexivity).
      destruct (put_ok snap (s_cur s)) eqn:Hput.
      + (* success: the snapshot is the current object, i.e. the last version written *)
        assert (Hprev : option_map o_val snap = last_val v0 (s_log s))
          by (rewrite <- (inv_last HI); exact (Hsame eq_refl)).
        constructor; simpl.
        * apply chain_app_iff. split; [apply (inv_chain HI)|]. simpl. rewrite <- Hprev.
          exact (conj eq_refl (conj Hd I)).
        * unfold cur_val; simpl. rewrite last_val_app. reflexivity.
        * intros ob Heq. inversion Heq; subst ob. simpl. lia.
        * (* the PUT went through, so nobody has PUT since this client decided *)
          apply times_chain_app_iff. split; [apply (inv_times HI)|].
          exact (conj (Hlp eq_refl) (conj Hdn I)).
        * rewrite last_put_app. simpl. lia.
        * intros c'. unfold upd. destruct (Nat.eqb_spec c' c) as [->|Hne].
          -- apply (cl_inv_commit_self (s_cur s)); [reflexivity|reflexivity|exact Hfl|exact Hcl].
          -- apply (cl_inv_commit_other (s_cur s)); [apply (inv_ver HI)|simpl; congruence|apply (inv_cl HI)].
      + (* conflict *)
        destruct (Nat.leb max_retries (S att)); (apply inv_set_client; [exact HI|]).
        * apply cl_inv_fail; try assumption; intros o'; discriminate.
        * apply cl_inv_pc; [exact Hcl|exact I|symmetry; exact Hfl].
    - (* Backoff: next attempt *)
      apply inv_set_client, do_get_ok; try assumption. rewrite Hpc. reflexivity.
  Qed.

  (* a further (instance-specific) state predicate is carried through every
     run with the help of Inv *)
  Lemma run_invariant (P : sysT -> Prop) :
    P (init_sys v0 now0 progs) ->
    (forall s l, Inv s -> P s -> P (stepD s l)) ->
    forall sched, P (runD sched (init_sys v0 now0 progs)).
  Proof.
    intros H0 Hstep sched.
    assert (H : forall s, Inv s -> P s -> Inv (runD sched s) /\ P (runD sched s)).
    { induction sched as [|l r IH]; intros s HI HP; simpl; [split; assumption|].
      apply IH; [apply inv_step; exact HI|apply Hstep; assumption]. }
    apply H; [apply inv_init|exact H0].
  Qed.

  Lemma cas_inv (sched : list label) : Inv (runD sched (init_sys v0 now0 progs)).
  Proof. apply run_invariant; [apply inv_init|]. intros s l HI _. apply inv_step, HI. Qed.

  Theorem cas_linearizable (sched : list label) :
    let s := runD sched (init_sys v0 now0 progs) in
    (* 1. the versions written form a sequential execution: each commit was
          decided against the version written by the commit before it *)
    chain decide v0 (s_log s) /\
    (* 2. what a reader sees now is the last version written (or v0) *)
    cur_val s = last_val v0 (s_log s) /\
    (* 3. per client: its commits in the log are exactly its operations that
          returned FCommit, in program order, with the outputs they returned;
          FAbort / FRetries operations have no commit *)
    (forall c, map op_out (by_client c (s_log s)) = successes (c_done (s_cl s c))) /\
    (* 4. finished ++ in flight ++ not yet started = the client's program *)
    (forall c, map fst (c_done (s_cl s c)) ++ inflight (c_pc (s_cl s c)) ++ c_todo (s_cl s c) = progs c) /\
    (* 5. an aborting operation returned decide's answer to a version that existed *)
    (forall c op o, In (op, FAbort o) (c_done (s_cl s c)) ->
       exists now prev, hist v0 (s_log s) prev /\ decide now op prev = Abort o).
  Proof.
    intros s. pose proof (cas_inv sched) as HI. fold s in HI.
    split; [apply (inv_chain HI)|]. split; [apply (inv_last HI)|].
    split; [intros c; apply (ci_succ (inv_cl HI c))|].
    split; [intros c; apply (ci_prog (inv_cl HI c))|].
    intros c. apply (ci_abort (inv_cl HI c)).
  Qed.

  (* a chain is the sequential (atomic, one-at-a-time) execution of its
     operations in commit order *)
  Lemma chain_seq_exec (log : list commitT) : forall prev,
    chain decide prev log -> last_val prev log = seq_exec decide prev (log_ops log).
  Proof.
    induction log as [|k r IH]; intros prev Hc; [reflexivity|].
    destruct Hc as [_ [Hd Hc]].
    change (last_val prev (k :: r)) with (last_val (Some (k_val k)) r).
    change (seq_exec decide prev (log_ops (k :: r)))
      with (seq_exec decide (fst (atomic decide (k_now k) (k_op k) prev)) (log_ops r)).
    unfold atomic. rewrite Hd. apply IH. exact Hc.
  Qed.

  Theorem cas_sequential (sched : list label) :
    let s := runD sched (init_sys v0 now0 progs) in
    cur_val s = seq_exec decide v0 (log_ops (s_log s)).
  Proof.
    intros s. destruct (cas_linearizable sched) as [Hc [Hl _]]. fold s in Hc, Hl.
    rewrite Hl. apply chain_seq_exec, Hc.
  Qed.

  (* induction along a chain: J is known of the version a commit replaces, Q is
     what its decide then guarantees of the commit, J of the version it writes *)
  Lemma chain_Forall (J : option V -> Prop) (Q : commitT -> Prop) (log : list commitT) : forall prev,
    (forall k, In k log -> J (k_prev k) ->
               decide (k_now k) (k_op k) (k_prev k) = Commit (k_val k) (k_out k) ->
               Q k /\ J (Some (k_val k))) ->
    J prev -> chain decide prev log ->
    Forall Q log /\ J (last_val prev log).
  Proof.
    induction log as [|k r IH]; intros prev Hstep Hp Hc; [split; [constructor|exact Hp]|].
    destruct Hc as [Hk [Hd Hc]]. subst prev.
    destruct (Hstep k (or_introl eq_refl) Hp Hd) as [HQ HJ].
    destruct (IH (Some (k_val k)) (fun k' Hin => Hstep k' (or_intror Hin)) HJ Hc) as [A B].
    split; [constructor; assumption|exact B].
  Qed.

  (* creation (PutMode::Create) succeeds at most once, as the first commit,
     and only if the object was absent initially *)
  Lemma chain_prev_some (log : list commitT) prev :
    chain decide prev log ->
    match log with
    | [] => True
    | k :: r => k_prev k = prev /\ Forall (fun k' => k_prev k' <> None) r
    end.
  Proof.
    destruct log as [|k r]; [trivial|]. intros [Hk [_ Hc]]. split; [exact Hk|].
    apply (chain_Forall (fun p => p <> None) (fun k' => k_prev k' <> None) r (Some (k_val k))); [|discriminate|exact Hc].
    intros k' _ Hp _. split; [exact Hp|discriminate].
  Qed.

  Theorem cas_create_once (sched : list label) :
    let s := runD sched (init_sys v0 now0 progs) in
    match s_log s with
    | [] => True
    | k :: r => k_prev k = v0 /\ Forall (fun k' => k_prev k' <> None) r
    end.
  Proof. intros s. apply chain_prev_some, (cas_linearizable sched). Qed.

  (* clause 3 of cas_linearizable for one client, with what it says about
     numbers: a successful operation is in the log exactly once, an operation
     that did not return FCommit wrote nothing *)
  Theorem cas_successes_are_commits (sched : list label) c :
    let s := runD sched (init_sys v0 now0 progs) in
    map op_out (by_client c (s_log s)) = successes (c_done (s_cl s c)) /\
    length (by_client c (s_log s)) = length (successes (c_done (s_cl s c))).
  Proof.
    intros s. pose proof (ci_succ (inv_cl (cas_inv sched) c)) as H. fold s in H.
    split; [exact H|]. rewrite <- H. symmetry. apply map_length.
  Qed.

  Theorem cas_failures_write_nothing (sched : list label) c :
    let s := runD sched (init_sys v0 now0 progs) in
    length (by_client c (s_log s)) = length (successes (c_done (s_cl s c))) /\
    (successes (c_done (s_cl s c)) = [] -> by_client c (s_log s) = []).
  Proof.
    intros s. destruct (cas_successes_are_commits sched c) as [_ Hlen]. fold s in Hlen.
    split; [exact Hlen|]. intros He. apply length_zero_iff_nil. rewrite Hlen, He. reflexivity.
  Qed.

  Theorem cas_times_ordered (sched : list label) :
    let s := runD sched (init_sys v0 now0 progs) in
    times_chain now0 (s_log s) /\ (last_put now0 (s_log s) <= s_now s)%Z.
  Proof.
    intros s. pose proof (cas_inv sched) as HI. fold s in HI.
    split; [apply (inv_times HI)|apply (inv_now HI)].
  Qed.

  Lemma successes_in (d : list (Op * fin Out)) op o :
    In (op, o) (successes d) -> In (op, FCommit o) d.
  Proof.
    unfold successes. rewrite in_flat_map. intros [[op' f] [Hin Hx]]. simpl in Hx.
    destruct f as [o'|o'|]; simpl in Hx; try contradiction.
    destruct Hx as [Heq|[]]. inversion Heq; subst. exact Hin.
  Qed.

  Theorem cas_log_ops_in_progs (sched : list label) :
    let s := runD sched (init_sys v0 now0 progs) in
    Forall (fun k => In (k_op k) (progs (k_client k))) (s_log s).
  Proof.
    intros s. pose proof (inv_cl (cas_inv sched)) as Hcl. fold s in Hcl.
    apply Forall_forall. intros k Hk.
    assert (Hb : In k (by_client (k_client k) (s_log s))).
    { unfold by_client. apply filter_In. split; [exact Hk|apply Nat.eqb_refl]. }
    apply (in_map op_out) in Hb. rewrite (ci_succ (Hcl _)) in Hb.
    apply successes_in, (in_map fst) in Hb.
    rewrite <- (ci_prog (Hcl (k_client k))). apply in_or_app. left. exact Hb.
  Qed.

  (* any predicate of values that holds initially and is preserved by every
     committing decide of an operation that occurs in the programs holds of
     every version ever written, and of what any reader can GET at any time *)
  Theorem cas_invariant_ops (P : Op -> Prop) (I : V -> Prop) (sched : list label) :
    (forall c op, In op (progs c) -> P op) ->
    match v0 with Some v => I v | None => True end ->
    (forall now op prev v' o,
        P op -> match prev with Some v => I v | None => True end ->
        decide now op prev = Commit v' o -> I v') ->
    let s := runD sched (init_sys v0 now0 progs) in
    Forall (fun k => I (k_val k)) (s_log s) /\
    match cur_val s with Some v => I v | None => True end.
  Proof.
    intros HP H0 Hpres s. destruct (cas_linearizable sched) as [Hc [Hl _]].
    pose proof (cas_log_ops_in_progs sched) as Hin. fold s in Hc, Hl, Hin.
    rewrite Forall_forall in Hin. rewrite Hl.
    apply (chain_Forall (fun p => match p with Some v => I v | None => True end));
      [|exact H0|exact Hc].
    intros k Hk Hp Hd. split; exact (Hpres _ _ _ _ _ (HP _ _ (Hin k Hk)) Hp Hd).
  Qed.

  Theorem cas_invariant (I : V -> Prop) (sched : list label) :
    match v0 with Some v => I v | None => True end ->
    (forall now op prev v' o,
        match prev with Some v => I v | None => True end ->
        decide now op prev = Commit v' o -> I v') ->
    let s := runD sched (init_sys v0 now0 progs) in
    Forall (fun k => I (k_val k)) (s_log s) /\
    match cur_val s with Some v => I v | None => True end.
  Proof.
    intros H0 Hpres. apply (cas_invariant_ops (fun _ => True)); [trivial|exact H0|].
    intros now op prev v' o _. apply Hpres.
  Qed.

End CasProofs.

Arguments cas_inv {V Op Out} decide extra_gets max_retries v0 now0 progs sched.
Arguments cas_linearizable {V Op Out} decide extra_gets max_retries v0 now0 progs sched.
Arguments cas_sequential {V Op Out} decide extra_gets max_retries v0 now0 progs sched.
Arguments cas_invariant {V Op Out} decide extra_gets max_retries v0 now0 progs I sched.
Arguments cas_create_once {V Op Out} decide extra_gets max_retries v0 now0 progs sched.
Arguments cas_successes_are_commits {V Op Out} decide extra_gets max_retries v0 now0 progs sched c.
Arguments cas_failures_write_nothing {V Op Out} decide extra_gets max_retries v0 now0 progs sched c.
Arguments cas_times_ordered {V Op Out} decide extra_gets max_retries v0 now0 progs sched.
Arguments cas_log_ops_in_progs {V Op Out} decide extra_gets max_retries v0 now0 progs sched.
Arguments cas_invariant_ops {V Op Out} decide extra_gets max_retries v0 now0 progs P I sched.
Arguments run_invariant {V Op Out} decide extra_gets max_retries v0 now0 progs P.
Arguments do_get_single {V Op Out} decide s cl todo op att.
Arguments put_ok_same_val {V Op Out} decide v0 now0 {cur fresh now log op att snap dnow v' o}.
Arguments chain_app_iff {V Op Out} decide pre post prev.
Arguments chain_seq_exec {V Op Out} decide log prev.
Arguments chain_Forall {V Op Out} decide J Q log prev.
Arguments chain_prev_some {V Op Out} decide log prev.
Arguments Inv {V Op Out} decide v0 now0 progs s.
Arguments cl_inv {V Op Out} decide v0 now0 progs cur fresh now log c cl.
Arguments pc_ok {V Op Out} decide v0 now0 cur fresh now log p.
