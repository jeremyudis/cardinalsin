(* The remote-write conversion of Model/ProtoConv.v.  The label columns are
   characterised once ([label_names_in], sorted by [insert_name_sorted]) and a
   row's cells by [lookup_last]; [collect_spec] carries both through the two
   nested loops (series, samples). *)
From Coq Require Import ZArith List Sorting.Sorted.
From CS Require Import Base.Prelude Base.ListFacts Model.Proto Model.ProtoConv Proofs.ProtoProofs.
Open Scope N_scope.

Lemma bytes_eqb_spec : forall a b, reflect (a = b) (bytes_eqb a b).
Proof.
  induction a as [|x a IH]; intros [|y b]; cbn [bytes_eqb]; try (constructor; congruence).
  destruct (N.eqb_spec x y); cbn [andb]; [destruct (IH b)|]; constructor; congruence.
Qed.

Lemma bytes_eqb_refl : forall a, bytes_eqb a a = true.
Proof. intro a. destruct (bytes_eqb_spec a a); congruence. Qed.

Definition blt (a b : bytes) : Prop := bytes_ltb a b = true.

Lemma blt_cons : forall x a y b, blt (x :: a) (y :: b) <-> x < y \/ (x = y /\ blt a b).
Proof.
  intros x a y b. unfold blt. cbn [bytes_ltb].
  destruct (N.ltb_spec x y); [(* x < y *) intuition lia|].
  destruct (N.ltb_spec y x); (* y < x; x = y *) intuition (discriminate || lia).
Qed.

Lemma bytes_ltb_irrefl : forall a, bytes_ltb a a = false.
Proof.
  induction a as [|x a IH]; cbn [bytes_ltb]; [reflexivity|].
  rewrite N.ltb_irrefl. exact IH.
Qed.

Lemma bytes_ltb_total : forall a b, a <> b -> bytes_ltb a b = false -> blt b a.
Proof.
  induction a as [|x a IH]; intros [|y b] He Hl; try (contradiction || discriminate || reflexivity).
  apply blt_cons. cbn [bytes_ltb] in Hl.
  destruct (N.ltb_spec x y); [discriminate|]. destruct (N.ltb_spec y x); [left; assumption|].
  assert (x = y) by lia. subst y. right. split; [reflexivity|]. apply IH; [congruence|exact Hl].
Qed.

Lemma blt_trans : forall a b c, blt a b -> blt b c -> blt a c.
Proof.
  induction a as [|x a IH]; intros [|y b] [|z c] H1 H2; try (discriminate || reflexivity).
  apply blt_cons in H1, H2. apply blt_cons.
  destruct H1 as [H1|[-> H1]], H2 as [H2|[-> H2]].
  - (* x < y < z *) left. lia.
  - (* x < y = z *) left. exact H1.
  - (* x = y < z *) left. exact H2.
  - (* x = y = z *) right. exact (conj eq_refl (IH b c H1 H2)).
Qed.

Lemma insert_name_in : forall n l c, In c (insert_name n l) <-> c = n \/ In c l.
Proof.
  intros n l c. induction l as [|x r IH]; cbn [insert_name].
  - cbn [In]. intuition congruence.
  - destruct (bytes_eqb_spec n x) as [->|_]; [|destruct (bytes_ltb n x)]; cbn [In].
    + (* n = x: already there *) intuition congruence.
    + (* n < x: put in front *) intuition congruence.
    + (* x < n: further down *) rewrite IH. tauto.
Qed.

Lemma insert_name_hd : forall n l x, blt x n -> HdRel blt x l -> HdRel blt x (insert_name n l).
Proof.
  intros n l x Hxn Hl. destruct l as [|y r]; cbn [insert_name].
  - constructor. exact Hxn.
  - inversion Hl; subst. destruct (bytes_eqb n y); [constructor; assumption|].
    destruct (bytes_ltb n y); constructor; assumption.
Qed.

Lemma insert_name_sorted : forall n l, Sorted blt l -> Sorted blt (insert_name n l).
Proof.
  intros n l H. induction H as [|x r Hr IH Hhd]; cbn [insert_name].
  - constructor; constructor.
  - destruct (bytes_eqb_spec n x) as [E|E]; [constructor; assumption|].
    destruct (bytes_ltb n x) eqn:L.
    + constructor; [constructor; assumption|]. constructor. exact L.
    + constructor; [exact IH|]. apply insert_name_hd; [|exact Hhd].
      apply bytes_ltb_total; assumption.
Qed.

Lemma add_label_names_in : forall ls acc c,
  In c (add_label_names acc ls) <-> In c acc \/ (c <> NAME /\ In c (map l_name ls)).
Proof.
  unfold add_label_names. induction ls as [|l ls IH]; intros acc c; cbn [fold_left map In]; [tauto|].
  rewrite IH. destruct (bytes_eqb_spec (l_name l) NAME) as [E|E].
  - (* l is the metric name: not inserted, and c <> NAME excludes it on the right *) intuition congruence.
  - rewrite insert_name_in. intuition congruence.
Qed.

Lemma add_label_names_sorted : forall ls acc, Sorted blt acc -> Sorted blt (add_label_names acc ls).
Proof.
  intros ls acc. unfold add_label_names. apply fold_left_inv. intros a l _ H.
  destruct (bytes_eqb (l_name l) NAME); [exact H|]. apply insert_name_sorted. exact H.
Qed.

(* the names are collected series by series, which is the same as from all labels in a row *)
Lemma label_names_flat : forall r acc,
  fold_left (fun acc t => add_label_names acc (ts_labels t)) r acc
  = add_label_names acc (flat_map ts_labels r).
Proof.
  induction r as [|t r IH]; intro acc; cbn [fold_left flat_map]; [reflexivity|].
  rewrite IH. symmetry. apply fold_left_app.
Qed.

Lemma label_names_in : forall r c,
  In c (label_names r) <-> c <> NAME /\ exists t l, In t r /\ In l (ts_labels t) /\ l_name l = c.
Proof.
  intros r c. unfold label_names. rewrite label_names_flat, add_label_names_in, in_map_iff. split.
  - intros [[]|[Hc (l & Hn & Hl)]]. apply in_flat_map in Hl. destruct Hl as (t & Ht & Hl).
    split; [exact Hc|]. exists t, l. auto.
  - intros [Hc (t & l & Ht & Hl & Hn)]. right. split; [exact Hc|].
    exists l. split; [exact Hn|]. apply in_flat_map. exists t. auto.
Qed.

(* strictly increasing (hence duplicate-free) *)
Lemma label_names_strongly_sorted : forall r, StronglySorted blt (label_names r).
Proof.
  intro r. apply Sorted_StronglySorted; [exact blt_trans|].
  unfold label_names. rewrite label_names_flat. apply add_label_names_sorted. constructor.
Qed.

Lemma metric_name_spec : forall ls,
  (exists pre l post, ls = pre ++ l :: post /\ l_name l = NAME /\
                      (forall x, In x pre -> l_name x <> NAME) /\ metric_name ls = l_value l)
  \/ ((forall x, In x ls -> l_name x <> NAME) /\ metric_name ls = []).
Proof.
  induction ls as [|l ls IH]; cbn [metric_name].
  - right. split; [intros x []|reflexivity].
  - destruct (bytes_eqb_spec (l_name l) NAME) as [E|E].
    + left. exists [], l, ls. cbn [app]. repeat split; auto; intros x [].
    + destruct IH as [(pre & l' & post & H1 & H2 & H3 & H4)|[H1 H2]].
      * left. exists (l :: pre), l', post. subst ls. cbn [app]. repeat split; auto.
        intros x [Hx|Hx]; [subst; exact E|auto].
      * right. split; [|exact H2]. intros x [Hx|Hx]; [subst; exact E|auto].
Qed.

Lemma lookup_last_none : forall c ls,
  lookup_last c ls = None <-> (forall l, In l ls -> l_name l <> c).
Proof.
  intros c ls. rewrite <- Forall_forall. induction ls as [|l ls IH]; cbn [lookup_last].
  - split; [constructor|reflexivity].
  - rewrite Forall_cons_iff, <- IH.
    destruct (lookup_last c ls); [(* found further on: IH's side is false *) intuition discriminate|].
    destruct (bytes_eqb_spec (l_name l) c); (* l has the name, or not *) intuition discriminate.
Qed.

Lemma lookup_last_app : forall c a b,
  lookup_last c (a ++ b) = match lookup_last c b with Some v => Some v | None => lookup_last c a end.
Proof.
  intros c a b. induction a as [|l a IH]; cbn [app lookup_last].
  - destruct (lookup_last c b); reflexivity.
  - rewrite IH. destruct (lookup_last c b); reflexivity.
Qed.

Lemma lookup_last_some : forall c ls v,
  lookup_last c ls = Some v <->
  exists pre l post, ls = pre ++ l :: post /\ l_name l = c /\ l_value l = v /\
                     (forall x, In x post -> l_name x <> c).
Proof.
  intros c ls v. split.
  - revert v. induction ls as [|l ls IH]; intro v; cbn [lookup_last]; [discriminate|].
    destruct (lookup_last c ls) as [w|] eqn:E.
    + intro H. inversion H; subst w. destruct (IH v eq_refl) as (pre & l' & post & -> & H').
      exists (l :: pre), l', post. auto.
    + destruct (bytes_eqb_spec (l_name l) c) as [B|B]; [|discriminate].
      intro H. inversion H. exists [], l, ls. repeat split; auto. apply lookup_last_none. exact E.
  - intros (pre & l & post & -> & Hn & Hv & Hp). rewrite lookup_last_app. cbn [lookup_last].
    rewrite (proj2 (lookup_last_none c post) Hp).
    destruct (bytes_eqb_spec (l_name l) c); congruence.
Qed.

(* the cell of the label column called [c] in a row ([None]: no such column, or a null cell) *)
Definition cell (cols : list bytes) (cells : list (option bytes)) (c : bytes) : option bytes :=
  match find (fun p => bytes_eqb (fst p) c) (combine cols cells) with
  | Some (_, v) => v
  | None => None
  end.

Lemma cell_map : forall (f : bytes -> option bytes) cols c,
  cell cols (map f cols) c = if existsb (fun x => bytes_eqb x c) cols then f c else None.
Proof.
  intros f cols c. unfold cell. induction cols as [|x cols IH]; cbn [map combine find existsb fst]; [reflexivity|].
  destruct (bytes_eqb_spec x c) as [->|_]; cbn [orb]; [reflexivity|exact IH].
Qed.

Lemma existsb_bytes_in : forall cols c, existsb (fun x => bytes_eqb x c) cols = true <-> In c cols.
Proof.
  intros cols c. rewrite existsb_exists. split.
  - intros (x & Hx & E). destruct (bytes_eqb_spec x c); [subst; exact Hx|discriminate].
  - intro H. exists c. split; [exact H|apply bytes_eqb_refl].
Qed.

(* what the property demands of the row that a sample [s] of series [t] became *)
Definition row_faithful (cols : list bytes) (t : series) (s : sample) (rw : row) : Prop :=
  r_ts rw = (s_ts s * 1000000)%Z /\ in_i64 (r_ts rw) = true /\
  r_name rw = metric_name (ts_labels t) /\
  r_val rw = route (s_bits s) /\
  length (r_labels rw) = length cols /\
  forall c, cell cols (r_labels rw) c
            = if bytes_eqb c NAME then None else lookup_last c (ts_labels t).

Lemma collect_spec : forall (A B : Type) (f : A -> outcome B) l,
  match collect f l with
  | Done bs => Forall2 (fun a b => f a = Done b) l bs
  | Failed c => exists a, In a l /\ f a = Failed c
  | Panic => exists a, In a l /\ f a = Panic
  | Hang => exists a, In a l /\ f a = Hang
  end.
Proof.
  intros A B f. induction l as [|a l IH]; cbn [collect]; [constructor|].
  destruct (f a) as [b|c| |] eqn:Ea; cbn [obind];
    [|(* f a is not Done: a is the witness *) exists a; cbn [In]; auto..].
  destruct (collect f l) as [bs|c| |]; cbn [obind]; [constructor; assumption|..].
  (* the rest of the list is not Done: its witness *)
  all: destruct IH as (x & Hx & E); exists x; cbn [In]; auto.
Qed.

Lemma cells_of_series : forall r t, In t r -> forall c,
  cell (label_names r) (map (fun c => lookup_last c (ts_labels t)) (label_names r)) c
  = if bytes_eqb c NAME then None else lookup_last c (ts_labels t).
Proof.
  intros r t Ht c. rewrite cell_map.
  destruct (existsb (fun x => bytes_eqb x c) (label_names r)) eqn:E.
  - apply existsb_bytes_in, label_names_in in E. destruct E as [Hc _].
    destruct (bytes_eqb_spec c NAME); [contradiction|reflexivity].
  - destruct (bytes_eqb_spec c NAME) as [|N]; [reflexivity|]. symmetry. apply lookup_last_none.
    intros l Hl Hn. apply Bool.not_true_iff_false in E. apply E, existsb_bytes_in, label_names_in.
    split; [exact N|]. exists t, l. auto.
Qed.

(* convert_faithful: when the conversion succeeds,
   - the label columns are exactly the label names other than "__name__" of all
     series, strictly increasing in byte order;
   - the rows are the concatenation, series by series in request order, of one
     row per sample in sample order; each row carries the exact nanosecond
     timestamp (which fits i64), the metric name of ITS series, the routed
     value of ITS sample, and in every label column the value that ITS series
     gives to that label (null when its series does not have the label). *)
Theorem convert_faithful : forall (r : request) (b : batch),
  convert r = Done b ->
  StronglySorted blt (b_cols b) /\
  (forall c, In c (b_cols b) <->
             c <> NAME /\ exists t l, In t r /\ In l (ts_labels t) /\ l_name l = c) /\
  exists rows : list (list row),
    b_rows b = concat rows /\
    Forall2 (fun t rs => Forall2 (row_faithful (b_cols b) t) (ts_samples t) rs) r rows.
Proof.
  intros r b H. unfold convert in H. destruct r as [|t0 r0]; [discriminate|].
  set (r := t0 :: r0) in *.
  pose proof (collect_spec _ _ (convert_series (label_names r)) r) as Hc.
  destruct (collect (convert_series (label_names r)) r) as [rows| | |]; cbn [obind] in H; try discriminate.
  inversion H; subst b; clear H. cbn [b_cols b_rows].
  split; [apply label_names_strongly_sorted|].
  split; [apply label_names_in|].
  exists rows. split; [reflexivity|].
  eapply Forall2_impl_In; [|exact Hc]. cbv beta. intros t rs Ht Hs.
  pose proof (collect_spec _ _ (convert_sample (label_names r) (metric_name (ts_labels t)) (ts_labels t))
                           (ts_samples t)) as Hr.
  unfold convert_series in Hs. rewrite Hs in Hr.
  eapply Forall2_impl_In; [|exact Hr]. cbv beta. intros s rw _ Hrw. unfold convert_sample in Hrw.
  destruct (in_i64 (s_ts s * 1000000)) eqn:Ei; [|discriminate].
  inversion Hrw; subst rw; clear Hrw. unfold row_faithful. cbn [r_ts r_name r_val r_labels].
  repeat split; try exact Ei.
  - (* one cell per column *) apply map_length.
  - (* the cells *) apply cells_of_series. exact Ht.
Qed.

Lemma convert_series_total : forall cols t,
  match convert_series cols t with
  | Done _ => True
  | Failed c => c = E_TS_RANGE /\ exists s, In s (ts_samples t) /\ in_i64 (s_ts s * 1000000) = false
  | Panic | Hang => False
  end.
Proof.
  intros cols t. unfold convert_series.
  pose proof (collect_spec _ _ (convert_sample cols (metric_name (ts_labels t)) (ts_labels t)) (ts_samples t)) as H.
  destruct (collect _ (ts_samples t)); [exact I|..].
  (* some sample was not Done; a sample is Done or Failed E_TS_RANGE *)
  all: destruct H as (s & Hs & H); unfold convert_sample in H;
    destruct (in_i64 (s_ts s * 1000000)) eqn:Ei; try discriminate H.
  injection H as <-. split; [reflexivity|]. exists s. auto.
Qed.

(* the conversion fails only for an empty request or a timestamp without an
   i64 nanosecond representation, and never crashes *)
Theorem convert_total : forall r : request,
  match convert r with
  | Done _ => True
  | Failed c => (c = E_NO_SERIES /\ r = []) \/
                (c = E_TS_RANGE /\ exists t s, In t r /\ In s (ts_samples t) /\ in_i64 (s_ts s * 1000000) = false)
  | Panic | Hang => False
  end.
Proof.
  intro r. unfold convert. destruct r as [|t0 r0]; [left; auto|].
  set (r := t0 :: r0).
  pose proof (collect_spec _ _ (convert_series (label_names r)) r) as H.
  destruct (collect (convert_series (label_names r)) r); cbn [obind]; [exact I|..].
  (* some series was not Done *)
  all: destruct H as (t & Ht & H); pose proof (convert_series_total (label_names r) t) as Hs; rewrite H in Hs.
  - (* Failed *) destruct Hs as (-> & s & Hs). right. split; [reflexivity|]. exists t, s. auto.
  - (* Panic *) contradiction.
  - (* Hang *) contradiction.
Qed.

Theorem convert_row_count : forall r b,
  convert r = Done b ->
  length (b_rows b) = fold_right (fun t n => (length (ts_samples t) + n)%nat) 0%nat r.
Proof.
  intros r b H. apply convert_faithful in H. destruct H as (_ & _ & rows & Hr & HF).
  rewrite Hr. clear Hr. induction HF as [|t rs r rows Hh _ IH]; cbn [concat fold_right length]; [reflexivity|].
  rewrite app_length, IH. f_equal. symmetry. eapply Forall2_length. exact Hh.
Qed.

(* the HTTP handler answers every body with a status: it never panics or hangs *)
Theorem handle_total : forall (m : build) (body : option bytes),
  (forall d, body = Some d -> N.of_nat (length d) < I63) ->
  match handle m body with
  | H204 | H400 | H500 => True
  | HPanic | HHang => False
  end.
Proof.
  intros m body Hlen. unfold handle. destruct body as [d|]; [|exact I].
  pose proof (parse_total m d (Hlen d eq_refl)) as Hp.
  destruct (parse_write_request (current m) d) as [r|c| |]; try exact I; try contradiction.
  pose proof (convert_total r) as Hc.
  destruct (convert r); try exact I; contradiction.
Qed.

(* non-vacuity of the hypotheses of parse_encode and convert_faithful *)
Definition ex_req : request :=
  [mkSeries [mkLabel NAME [99;112;117]; mkLabel [104] [97]]
            [mkSample 1000%Z 4605831338911806259; mkSample (-5)%Z 4890909195324358656];
   mkSeries [mkLabel [122] [98]; mkLabel NAME [109]; mkLabel [122] [99]]
            [mkSample 7%Z 13835058055282163712]].

Example parse_encode_nonvacuous :
  wf_request ex_req /\ N.of_nat (length (enc_request ex_req)) < I63 /\
  parse_write_request (current Debug) (enc_request ex_req) = Done ex_req.
Proof.
  split; [|split; [vm_compute; reflexivity|vm_compute; reflexivity]].
  unfold ex_req, wf_request. repeat constructor.
  (* closed clauses, checked by the constructors (eq_refl included); left are
     the lower bounds of the three timestamps, of the form _ <> Gt *)
  all: vm_compute; discriminate.
Qed.

(* two series with different label sets, a duplicated label (last value wins), a
   metric name that is not the first label, the value 2^63 (kept as f64) and -2.0
   (stored as the integer -2) *)
Example convert_faithful_nonvacuous :
  convert ex_req = Done (mkBatch [[104]; [122]]
    [mkRow 1000000000%Z [99;112;117] (RF64 4605831338911806259) [Some [97]; None];
     mkRow (-5000000)%Z [99;112;117] (RF64 4890909195324358656) [Some [97]; None];
     mkRow 7000000%Z [109] (RI64 (-2)%Z) [None; Some [99]]]).
Proof. vm_compute. reflexivity. Qed.
