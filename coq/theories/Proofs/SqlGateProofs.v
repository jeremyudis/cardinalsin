(* Proofs/SqlGateProofs.v — C11: an admitted plan has no effects, for plan
   trees of any depth and width (induction on the tree). *)
From CS Require Import Base.Prelude Model.SqlGate.

(* plans nest through lists, so the induction hypothesis for the inputs of a
   node is stated with Forall *)
Section PlanInd.
  Variable P : plan -> Prop.
  Hypothesis HQuery : forall op cs, Forall P cs -> P (PQuery op cs).
  Hypothesis HDml : forall k t i, P i -> P (PDml k t i).
  Hypothesis HDdl : forall k cs, Forall P cs -> P (PDdl k cs).
  Hypothesis HCopy : forall t i, P i -> P (PCopy t i).
  Hypothesis HStmt : forall k cs, Forall P cs -> P (PStmt k cs).
  Hypothesis HExplain : forall c, P c -> P (PExplain c).
  Hypothesis HAnalyze : forall c, P c -> P (PAnalyze c).
  Hypothesis HDescribe : P PDescribeTable.

  Fixpoint plan_ind' (p : plan) : P p :=
    let fix all (l : list plan) : Forall P l :=
      match l with
      | [] => @Forall_nil plan P
      | x :: r => @Forall_cons plan P x r (plan_ind' x) (all r)
      end in
    match p with
    | PQuery op cs => @HQuery op cs (all cs)
    | PDml k t i => @HDml k t i (plan_ind' i)
    | PDdl k cs => @HDdl k cs (all cs)
    | PCopy t i => @HCopy t i (plan_ind' i)
    | PStmt k cs => @HStmt k cs (all cs)
    | PExplain c => @HExplain c (plan_ind' c)
    | PAnalyze c => @HAnalyze c (plan_ind' c)
    | PDescribeTable => HDescribe
    end.
End PlanInd.

Lemma flat_map_nil_all :
  forall (A B : Type) (f : A -> list B) (l : list A),
    Forall (fun x => f x = []) l -> flat_map f l = [].
Proof.
  intros A B f l Hall. induction Hall as [|x r Hx _ IH]; cbn.
  - reflexivity.
  - rewrite Hx, IH. reflexivity.
Qed.

(* read-only options never let a DML, COPY, DDL or statement node through *)
Lemma admitted_dml : forall k t i, admitted (PDml k t i) = false.
Proof. reflexivity. Qed.
Lemma admitted_copy : forall t i, admitted (PCopy t i) = false.
Proof. reflexivity. Qed.
Lemma admitted_ddl : forall k cs, admitted (PDdl k cs) = false.
Proof. reflexivity. Qed.
Lemma admitted_stmt : forall k cs, admitted (PStmt k cs) = false.
Proof. reflexivity. Qed.

(* Which switch of the gate stops which effect, for plan trees of any shape:
   refusing DML (which covers COPY) leaves nothing that writes when the plan
   runs, whatever the nesting of EXPLAIN / EXPLAIN ANALYZE / subqueries ... *)
Lemma gated_exec_nil : forall o p,
  allow_dml o = false -> admitted_with o p = true -> exec_effects p = [].
Proof.
  intros o p Hdml.
  induction p as [op cs IH | k t i IH | k cs IH | t i IH | k cs IH | c IH | c IH | ] using plan_ind';
    cbn [admitted_with exec_effects]; intros Hadm;
    try reflexivity;                                  (* DDL, statements, EXPLAIN, DESCRIBE run nothing *)
    try (rewrite Hdml in Hadm; discriminate Hadm).    (* DML and COPY are refused *)
  - (* query operator *)
    apply flat_map_nil_all.
    rewrite forallb_forall in Hadm. rewrite Forall_forall in IH |- *.
    intros x Hin. apply IH; [exact Hin | apply Hadm; exact Hin].
  - (* EXPLAIN ANALYZE *)
    apply IH. exact Hadm.
Qed.

(* ... and refusing DDL and statements leaves nothing that is run on the spot
   while the statement is planned *)
Lemma gated_eager_none : forall o p,
  allow_ddl o = false -> allow_statements o = false ->
  admitted_with o p = true -> eager_effects p = None.
Proof.
  intros o p Hddl Hst Hadm.
  destruct p; try reflexivity; cbn [admitted_with] in Hadm; rewrite ?Hddl, ?Hst in Hadm; discriminate.
Qed.

Lemma gated_sql_effects_nil : forall o p,
  allow_ddl o = false -> allow_statements o = false ->
  admitted_with o p = true -> sql_effects p = [].
Proof.
  intros o p Hddl Hst Hadm. unfold sql_effects. rewrite (gated_eager_none o p Hddl Hst Hadm). reflexivity.
Qed.

Theorem gated_effects_nil : forall o p,
  allow_ddl o = false -> allow_dml o = false -> allow_statements o = false ->
  admitted_with o p = true -> effects p = [].
Proof.
  intros o p Hddl Hdml Hst Hadm. unfold effects, sql_effects, collect_effects.
  rewrite (gated_eager_none o p Hddl Hst Hadm). cbn [app].
  destruct p as [op cs | k t i | k cs | t i | k cs | c | c |];
    try exact (gated_exec_nil o _ Hdml Hadm).
  (* PStmt, where collect_effects has its own arm for EXECUTE: not admitted *)
  cbn [admitted_with] in Hadm. rewrite Hst in Hadm. discriminate.
Qed.

Theorem admitted_effects_nil : forall p, admitted p = true -> effects p = [].
Proof. intros p. exact (gated_effects_nil opts_read_only p eq_refl eq_refl eq_refl). Qed.

Lemma admitted_sql_effects_nil : forall p, admitted p = true -> sql_effects p = [].
Proof. intros p. exact (gated_sql_effects_nil opts_read_only p eq_refl eq_refl). Qed.

Lemma site_call_eq : forall s p, site_call s p = if admitted p then Some [] else None.
Proof.
  intros s p. unfold site_call, site_options. fold (admitted p).
  destruct (admitted p) eqn:Hadm; [|reflexivity]. unfold site_effects.
  destruct (site_runs s);
    [rewrite (admitted_effects_nil p Hadm) | rewrite (admitted_sql_effects_nil p Hadm)]; reflexivity.
Qed.

Theorem site_call_readonly :
  forall s p, site_call s p = None \/ site_call s p = Some [].
Proof. intros s p. rewrite site_call_eq. destruct (admitted p); auto. Qed.

(* a request is accepted exactly when it is one admitted statement, and has no
   effect either way: a refused first call stops it (the second extraction
   call that query_for_tenant still evaluates is refused as well) *)
Lemma run_sites_eq : forall ss p,
  run_sites ss p = (match ss with [] => true | _ => admitted p end, []).
Proof.
  induction ss as [|s r IH]; intros p; cbn [run_sites]; [reflexivity|].
  rewrite site_call_eq, IH. destruct (admitted p) eqn:Hadm.
  - destruct r; reflexivity.
  - destruct s; try reflexivity. destruct r as [|s2 r2]; [reflexivity|].
    rewrite site_call_eq, Hadm. reflexivity.
Qed.

Lemma run_sites_readonly : forall ss p, snd (run_sites ss p) = [].
Proof. intros ss p. rewrite run_sites_eq. reflexivity. Qed.

Lemma run_sites_accepts : forall ss p, ss <> [] -> fst (run_sites ss p) = admitted p.
Proof. intros ss p Hne. rewrite run_sites_eq. destruct ss; [congruence | reflexivity]. Qed.

Theorem submit_readonly : forall i stmts, snd (submit i stmts) = [].
Proof.
  intros i stmts. unfold submit.
  destruct stmts as [|p [|q r]]; try reflexivity. apply run_sites_readonly.
Qed.

Theorem submit_accepts_iff :
  forall i stmts, fst (submit i stmts) = true <-> exists p, stmts = [p] /\ admitted p = true.
Proof.
  intros i stmts. unfold submit. destruct stmts as [|p [|q r]]; cbn [fst].
  - split; [discriminate | intros [p [H _]]; discriminate].
  - rewrite run_sites_accepts by (destruct i; discriminate).
    split.
    + intros H. exists p. split; [reflexivity | exact H].
    + intros [p' [Heq H]]. injection Heq as ->. exact H.
  - split; [discriminate | intros [p' [H _]]; discriminate].
Qed.

Theorem effectful_rejected : forall p, effects p <> [] -> admitted p = false.
Proof.
  intros p Hne. destruct (admitted p) eqn:Hadm; [|reflexivity].
  exfalso. apply Hne. apply admitted_effects_nil. exact Hadm.
Qed.

(* the code before the repair: plain ctx.sql admitted everything *)
Lemma unrestricted_admits_all : forall p, admitted_with opts_unrestricted p = true.
Proof.
  induction p as [op cs IH | k t i IH | k cs IH | t i IH | k cs IH | c IH | c IH | ] using plan_ind';
    cbn [admitted_with opts_unrestricted allow_ddl allow_dml allow_statements andb];
    try assumption; try reflexivity;
    (rewrite forallb_forall; rewrite Forall_forall in IH; exact IH).
Qed.

Definition select1 : plan := PQuery QProjection [PQuery QEmptyRelation []].
(* COPY (SELECT 1 AS x) TO 's3://cardinalsin-data/default/evil.parquet' *)
Definition w_copy_fresh : plan := PCopy LFresh select1.
(* COPY (SELECT ...) TO '<existing chunk path>' *)
Definition w_copy_chunk : plan := PCopy LChunk select1.
(* DROP TABLE metrics *)
Definition w_drop_metrics : plan := PDdl DropTable [].
(* EXPLAIN ANALYZE COPY ... TO '<catalog path>' *)
Definition w_analyze_copy : plan := PAnalyze (PCopy LCatalog select1).
(* SET datafusion.execution.batch_size = 1 *)
Definition w_set : plan := PStmt SetVariable [].
(* EXPLAIN over EXPLAIN ANALYZE over EXPLAIN ANALYZE COPY ... *)
Definition w_nested : plan := PExplain (PAnalyze (PAnalyze (PCopy LFresh select1))).

Theorem refuted_before_fix :
  admitted_with opts_unrestricted w_copy_fresh = true /\ effects w_copy_fresh = [EStoreWrite LFresh].
Proof. split; reflexivity. Qed.

(* the unrepaired query path planned a statement three times per request, and
   each planning ran the DROP TABLE *)
Theorem refuted_before_fix_ddl_eager :
  run_sites_unrestricted (iface_sites ISqlHttp) w_drop_metrics
  = [ECatalog DropTable; ECatalog DropTable; ECatalog DropTable].
Proof. reflexivity. Qed.

(* regression cases: all of them are rejected now, on every interface *)
Definition regression_cases : list plan :=
  [w_copy_fresh; w_copy_chunk; w_drop_metrics; w_analyze_copy; w_set; w_nested;
   PDml DInsert LChunk select1; PDdl CreateView [select1]; PDdl CreateExternalTable [];
   PStmt Prepare [select1]; PStmt Execute []; PStmt Deallocate [];
   PQuery QProjection [PQuery QSubquery [PCopy LFresh select1]]].

Definition all_ifaces : list iface :=
  [ISqlHttp; ISqlIndexed; IStreaming; IFlightInfo; IFlightPrepare; IFlightPrepareGrpc; IExecuteStream].

Theorem regression_cases_rejected :
  forallb (fun p => forallb (fun i => match submit i [p] with (false, []) => true | _ => false end) all_ifaces)
          regression_cases = true.
Proof. vm_compute. reflexivity. Qed.

(* non-vacuity: admitted plans exist, also with EXPLAIN ANALYZE nesting *)
Example admitted_nonvacuous :
  admitted select1 = true /\ admitted (PExplain (PAnalyze select1)) = true /\
  admitted PDescribeTable = true /\ fst (submit ISqlHttp [select1]) = true.
Proof. repeat split; reflexivity. Qed.
