(* Proofs/CatalogTie.v — the small pure functions the catalog model is built
   from ARE the functions of the Rust code: generated/Funs.v is re-translated
   from /repo on every run (lib/exprtrans.py) and each lemma below is closed by
   computation, so a change of `TimeRange::overlaps`, of either `hour_bucket`
   or of the bucket computation inside `get_chunks_with_predicates` breaks a
   proof obligation of C07. *)
From CS Require Import Base.Prelude Model.Catalog.
From CSGen Require Import Consts Funs.
Open Scope Z_scope.

Lemma overlaps_is_code cmin cmax s e :
  overlaps cmin cmax s e = Funs.timerange_overlaps cmin cmax s e.
Proof. reflexivity. Qed.

Lemma s3_register_bucket_is_code t :
  bucketw Consts.S3_REGISTER_BUCKET_NANOS t = Funs.s3_hour_bucket t.
Proof. reflexivity. Qed.

Lemma s3_get_buckets_are_code s e :
  bucketw Consts.S3_GET_BUCKET_NANOS s = Funs.s3_get_start_bucket s e /\
  bucketw Consts.S3_GET_BUCKET_NANOS e = Funs.s3_get_end_bucket s e.
Proof. split; reflexivity. Qed.

Lemma local_bucket_is_code t :
  bucketw Consts.LOCAL_BUCKET_NANOS t = Funs.local_hour_bucket t.
Proof. reflexivity. Qed.

Lemma contains_is_point_overlap a b t :
  Funs.timerange_contains a b t = overlaps a b t t.
Proof.
  unfold Funs.timerange_contains, overlaps.
  rewrite !Z.geb_leb. reflexivity.
Qed.

Theorem catalog_functions_are_the_code :
  (forall cmin cmax s e, overlaps cmin cmax s e = Funs.timerange_overlaps cmin cmax s e) /\
  (forall t, bucketw Consts.S3_REGISTER_BUCKET_NANOS t = Funs.s3_hour_bucket t) /\
  (forall s e, bucketw Consts.S3_GET_BUCKET_NANOS s = Funs.s3_get_start_bucket s e /\
               bucketw Consts.S3_GET_BUCKET_NANOS e = Funs.s3_get_end_bucket s e) /\
  (forall t, bucketw Consts.LOCAL_BUCKET_NANOS t = Funs.local_hour_bucket t).
Proof.
  exact (conj overlaps_is_code (conj s3_register_bucket_is_code
          (conj s3_get_buckets_are_code local_bucket_is_code))).
Qed.
