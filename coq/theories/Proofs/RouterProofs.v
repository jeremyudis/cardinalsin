(* Proofs/RouterProofs.v — C19: write routing returns, on a node that can accept writes.

   assign_shard is described once by its possible results (assign_result): the shard's node
   is kept, or a node that can accept writes is newly assigned, or an error leaves registry
   and assignments alone.  Without interference route_write is one call of assign_shard;
   under interference an induction on the loop's fuel gives the bound and the eligibility of
   an Ok.  The statements about assignments (one node per shard, a shard moves only by a
   rebalance or a route of that shard) follow from what each op of `step` does to st_asg. *)
From CS Require Import Base.Prelude Base.AList Base.ListFacts Model.Router.
From CSGen Require Import Consts.
Open Scope N_scope.

Section AListN.
  Context {V : Type}.
  Implicit Types (l : list (N * V)) (k : N) (v : V).

  Lemma aget_adel_same k l : aget N.eqb k (adel N.eqb k l) = None.
  Proof. exact (AList.aget_adel_same N.eqb k l). Qed.
End AListN.

Lemma fst_let {A B C} (p : A * B) (g : B -> C) : fst (let (a, b) := p in (a, g b)) = fst p.
Proof. now destruct p. Qed.

Lemma max_attempts_pos : 0 < Consts.ROUTER_MAX_ROUTE_ATTEMPTS.
Proof. reflexivity. Qed.

Lemma vnodes_pos : 0 < Consts.ROUTER_VIRTUAL_NODES.
Proof. reflexivity. Qed.

(* "overloaded" is a meaningful notion: the threshold is a percentage *)
Lemma threshold_is_a_percentage : 0 < Consts.ROUTER_LOAD_THRESHOLD <= 100.
Proof. split; [reflexivity|discriminate]. Qed.

(* the loop of route_write is bounded by the constant the model uses *)
Lemma loop_bound_is_max_attempts : Consts.ROUTER_ROUTE_LOOP_BOUND = Consts.ROUTER_MAX_ROUTE_ATTEMPTS.
Proof. reflexivity. Qed.

Definition eligible_spec (i : ninfo) : Prop :=
  n_status i = Healthy /\ (n_type i = Ingester \/ n_type i = Combined) /\ n_load i < Consts.ROUTER_LOAD_THRESHOLD.

Lemma can_accept_writes_spec i : can_accept_writes i = true <-> eligible_spec i.
Proof.
  unfold can_accept_writes, eligible_spec. rewrite !andb_true_iff, N.ltb_lt, and_assoc.
  destruct (n_status i); [destruct (n_type i); intuition discriminate|..]; easy.
Qed.

Lemma eligible_iff r n :
  eligible r n = true <-> exists i, aget N.eqb n r = Some i /\ can_accept_writes i = true.
Proof.
  unfold eligible. destruct (aget N.eqb n r) as [i|].
  - split; [eauto|]. now intros [j [[= <-] Hc]].
  - split; [discriminate|]. now intros [j [? _]].
Qed.

Lemma eligible_reg_update r n f m :
  (forall i, can_accept_writes (f i) = can_accept_writes i) ->
  eligible (reg_update n f r) m = eligible r m.
Proof.
  intros Hf. unfold eligible, reg_update.
  destruct (aget N.eqb n r) as [i|] eqn:E; auto.
  destruct (N.eq_dec m n) as [->|Hne].
  - now rewrite (aget_aset_same N.eqb Neqb_spec), E, Hf.
  - now rewrite (aget_aset_other N.eqb Neqb_spec).
Qed.

Lemma eligible_update_node_shards st n m :
  eligible (st_reg (update_node_shards st n)) m = eligible (st_reg st) m.
Proof. now apply eligible_reg_update. Qed.

Lemma asg_update_node_shards st n : st_asg (update_node_shards st n) = st_asg st.
Proof. reflexivity. Qed.

Lemma ring_update_node_shards st n : st_ring (update_node_shards st n) = st_ring st.
Proof. reflexivity. Qed.

Lemma iter_nodes_In order r n i : In (n, i) (iter_nodes order r) <-> aget N.eqb n r = Some i.
Proof.
  unfold iter_nodes, iter_keys. rewrite in_flat_map. split.
  - intros [k [_ Hin]]. destruct (aget N.eqb k r) as [j|] eqn:E; [|contradiction].
    destruct Hin as [[= <- <-]|[]]. exact E.
  - intros E. exists n. rewrite E. split; [|now left].
    apply dedupN_In, in_or_app. right. exact (aget_in_keys N.eqb Neqb_spec _ _ _ E).
Qed.

Lemma healthy_In order r n i :
  In (n, i) (healthy_ingesters order r) <-> aget N.eqb n r = Some i /\ can_accept_writes i = true.
Proof. unfold healthy_ingesters. now rewrite filter_In, iter_nodes_In. Qed.

Lemma healthy_eligible order r n : In n (map fst (healthy_ingesters order r)) <-> eligible r n = true.
Proof.
  rewrite in_map_iff, eligible_iff. split.
  - intros [[n' i] [<- Hin]]. apply healthy_In in Hin. eauto.
  - intros [i Hi]. exists (n, i). split; [reflexivity|]. now apply healthy_In.
Qed.

Lemma min_by_key_spec key l : match min_by_key key l with Some p => In p l | None => l = [] end.
Proof.
  induction l as [|x r IH]; cbn; [reflexivity|].
  destruct (min_by_key key r) as [y|]; [destruct (key (snd y) <? key (snd x))|]; auto.
Qed.

Lemma ring_insert_nodes h n r x : In x (map snd (ring_insert h n r)) -> x = n \/ In x (map snd r).
Proof.
  induction r as [|[h' n'] t IH]; cbn.
  - intros [Hx|[]]; auto.
  - destruct (h <? h')%Z; [|destruct (h =? h')%Z]; cbn.
    + intros [Hx|[Hx|Hx]]; auto.
    + intros [Hx|Hx]; auto.
    + intros [Hx|Hx]; auto. destruct (IH Hx); auto.
Qed.

Lemma ring_insert_nonempty h n r : ring_insert h n r <> [].
Proof. destruct r as [|[h' n'] t]; cbn; [discriminate|]. destruct (h <? h')%Z; [|destruct (h =? h')%Z]; discriminate. Qed.

Lemma ring_build_nodes H nodes x : In x (map snd (ring_build H nodes)) -> In x (map fst nodes).
Proof.
  unfold ring_build, ring_add_node.
  apply (fold_left_inv (fun r => In x (map snd r) -> In x (map fst nodes))); [|intros []].
  intros r p Hp Hr. apply fold_left_inv; [|exact Hr].
  intros r' h _ Hr' Hin. destruct (ring_insert_nodes _ _ _ _ Hin) as [->|]; auto. now apply in_map.
Qed.

Lemma ring_add_node_nonempty H n r : vnode_hashes H n <> [] -> ring_add_node H n r <> [].
Proof.
  intros Hh. unfold ring_add_node.
  (* the ring is what its last insert returned *)
  destruct (fold_left_last (fun acc h => ring_insert h n acc)
              (firstn (N.to_nat Consts.ROUTER_VIRTUAL_NODES) (vnode_hashes H n)) r) as (r' & h & ->).
  - pose proof vnodes_pos. destruct (N.to_nat Consts.ROUTER_VIRTUAL_NODES) eqn:E; [lia|].
    now destruct (vnode_hashes H n).
  - apply ring_insert_nonempty.
Qed.

(* every node has a ring key: add_node hashes "<node>:<i>" for each i < VIRTUAL_NODES, and
   there is at least one (vnodes_pos), so the code never meets a node without *)
Definition hashes_ok (H : hashes) : Prop := forall n, vnode_hashes H n <> [].

Lemma ring_build_nonempty H nodes : hashes_ok H -> nodes <> [] -> ring_build H nodes <> [].
Proof.
  intros Hh Hne. unfold ring_build.
  destruct (fold_left_last (fun acc p => ring_add_node H (fst p) acc) nodes [] Hne) as (r & p & ->).
  apply ring_add_node_nonempty, Hh.
Qed.

Lemma ring_get_spec r h : match ring_get r h with Some n => In n (map snd r) | None => r = [] end.
Proof.
  unfold ring_get. destruct r as [|[h0 n0] t]; [reflexivity|].
  destruct (find _ _) as [p|] eqn:E; [|now left].
  apply in_map, (find_some _ _ E).
Qed.

Lemma ring_build_get H nodes h :
  hashes_ok H -> nodes <> [] ->
  exists n, ring_get (ring_build H nodes) h = Some n /\ In n (map fst nodes).
Proof.
  intros Hh Hne. generalize (ring_get_spec (ring_build H nodes) h).
  destruct (ring_get _ h) as [n|]; intros G.
  - exists n. split; [reflexivity|]. exact (ring_build_nodes _ _ _ G).
  - now apply ring_build_nonempty in G.
Qed.

Lemma with_reg_same st : with_reg st (st_reg st) = st.
Proof. now destruct st. Qed.

Lemma current_ok_spec st s n :
  current_ok st s = Some n <-> aget N.eqb s (st_asg st) = Some n /\ eligible (st_reg st) n = true.
Proof.
  unfold current_ok. destruct (aget N.eqb s (st_asg st)) as [m|]; [destruct (eligible (st_reg st) m) eqn:E|];
    intuition congruence.
Qed.

(* the strategy's choice inside assign_shard *)
Definition pick (strat : strategy) H order st s : state * outcome node :=
  match strat with
  | ConsistentHash => assign_consistent_hash H order st s
  | RoundRobin => assign_round_robin order st
  | LoadBased => assign_load_based order st
  end.

Lemma assign_shard_unfold strat H order st s :
  assign_shard strat H order st s =
  match current_ok st s with
  | Some n => (st, Done n)
  | None => let picked := pick strat H order st s in
            match picked with
            | (st1, Done n) => (update_node_shards (with_asg st1 (aset N.eqb s n (st_asg st1))) n, Done n)
            | other => other
            end
  end.
Proof. reflexivity. Qed.

(* what a strategy returns: same registry and assignments, and a node that can accept writes —
   or, with a ring key for every node, an error because there is none *)
Definition pick_ok H order (st st1 : state) (r : outcome node) : Prop :=
  st_reg st1 = st_reg st /\ st_asg st1 = st_asg st /\
  match r with
  | Done n => eligible (st_reg st) n = true
  | Failed _ => hashes_ok H -> healthy_ingesters order (st_reg st) = []
  | Panic | Hang => False
  end.

Lemma assign_consistent_hash_ok H order st s st1 r :
  assign_consistent_hash H order st s = (st1, r) -> pick_ok H order st st1 r.
Proof.
  unfold assign_consistent_hash, pick_ok.
  destruct (match ring_get (st_ring st) (shard_hash H s) with
            | Some n => if eligible (st_reg st) n then Some n else None
            | None => None end) as [n|] eqn:Ev.
  - (* the ring's node, verified *) intros [= <- <-]. repeat split.
    destruct (ring_get (st_ring st) (shard_hash H s)) as [m|]; [|discriminate].
    destruct (eligible (st_reg st) m) eqn:Ee; congruence.
  - (* the ring rebuilt from the healthy ingesters *)
    destruct (healthy_ingesters order (st_reg st)) as [|p t] eqn:Eh; [now intros [= <- <-]|].
    generalize (ring_get_spec (ring_build H (p :: t)) (shard_hash H s)).
    destruct (ring_get (ring_build _ _) _) as [m|]; intros Hg [= <- <-]; repeat split.
    + (* the node the rebuilt ring names can accept writes *)
      apply (healthy_eligible order). rewrite Eh. apply (ring_build_nodes H), Hg.
    + (* the rebuilt ring is not empty *) intros Hh. now apply ring_build_nonempty in Hg.
Qed.

(* assign_round_robin and assign_load_based are this match, for two keys *)
Lemma assign_min_ok H key order st st1 r :
  match min_by_key key (healthy_ingesters order (st_reg st)) with
  | Some p => (st, Done (fst p))
  | None => (st, Failed E_NO_HEALTHY)
  end = (st1, r) ->
  pick_ok H order st st1 r.
Proof.
  unfold pick_ok. generalize (min_by_key_spec key (healthy_ingesters order (st_reg st))).
  destruct (min_by_key key _) as [p|]; intros Hm [= <- <-]; repeat split.
  - (* the minimum is one of the healthy ingesters *) now apply (healthy_eligible order), in_map.
  - (* there is none *) intros _. exact Hm.
Qed.

Lemma pick_is_ok strat H order st s st1 r : pick strat H order st s = (st1, r) -> pick_ok H order st st1 r.
Proof.
  destruct strat; cbn [pick].
  - (* ConsistentHash *) apply assign_consistent_hash_ok.
  - (* RoundRobin *) apply assign_min_ok.
  - (* LoadBased *) apply assign_min_ok.
Qed.

Lemma assign_shard_kept strat H order st s n :
  current_ok st s = Some n -> assign_shard strat H order st s = (st, Done n).
Proof. intros Hc. now rewrite assign_shard_unfold, Hc. Qed.

(* every result of assign_shard, by what it does to the assignments and to eligibility; with a
   ring key for every node, an error means that no node can accept writes *)
Inductive assign_result H order (st : state) (s : shard) (st' : state) : outcome node -> Prop :=
| AR_kept n : current_ok st s = Some n -> st' = st -> assign_result H order st s st' (Done n)
| AR_new n :
    eligible (st_reg st) n = true ->
    st_asg st' = aset N.eqb s n (st_asg st) ->
    (forall m, eligible (st_reg st') m = eligible (st_reg st) m) ->
    assign_result H order st s st' (Done n)
| AR_err e :
    st_asg st' = st_asg st -> st_reg st' = st_reg st ->
    (hashes_ok H -> healthy_ingesters order (st_reg st) = []) ->
    assign_result H order st s st' (Failed e).

Lemma assign_shard_result strat H order st s st' r :
  assign_shard strat H order st s = (st', r) -> assign_result H order st s st' r.
Proof.
  rewrite assign_shard_unfold. cbv zeta. destruct (current_ok st s) as [n|] eqn:Ec.
  - intros [= <- <-]. now apply AR_kept.
  - destruct (pick strat H order st s) as [st1 r1] eqn:Ep.
    destruct (pick_is_ok _ _ _ _ _ _ _ Ep) as (Hr & Ha & Hk).
    destruct r1 as [n|e| |]; try contradiction; intros [= <- <-].
    + apply AR_new; auto.
      * rewrite asg_update_node_shards. cbn. now rewrite Ha.
      * intros m. rewrite eligible_update_node_shards. cbn. now rewrite Hr.
    + now apply AR_err.
Qed.

Lemma assign_shard_done strat H order st s st' n :
  assign_shard strat H order st s = (st', Done n) ->
  eligible (st_reg st) n = true /\ aget N.eqb s (st_asg st') = Some n.
Proof.
  intros Ha. apply assign_shard_result in Ha. inversion Ha as [n' Hc ->|n' He Hasg _|]; subst.
  - apply current_ok_spec in Hc. tauto.
  - split; auto. rewrite Hasg. apply (aget_aset_same N.eqb Neqb_spec).
Qed.

Lemma assign_shard_returns strat H order st s :
  snd (assign_shard strat H order st s) <> Hang /\ snd (assign_shard strat H order st s) <> Panic.
Proof.
  destruct (assign_shard strat H order st s) as [st' r] eqn:Ea.
  apply assign_shard_result in Ea. destruct Ea; cbn; split; discriminate.
Qed.

Lemma assign_shard_keeps_eligibility strat H order st s st' r m :
  assign_shard strat H order st s = (st', r) -> eligible (st_reg st') m = eligible (st_reg st) m.
Proof.
  intros Ha. apply assign_shard_result in Ha. destruct Ha as [n _ ->|n _ _ He|e _ Hr _]; auto.
  now rewrite Hr.
Qed.

(* assign_shard acts on the assignments by an insert of the routed shard, if at all *)
Lemma assign_shard_asg_invariant (Q : assignments -> Prop) strat H order st s :
  (forall n a, Q a -> Q (aset N.eqb s n a)) ->
  Q (st_asg st) -> Q (st_asg (fst (assign_shard strat H order st s))).
Proof.
  intros Hset HQ. destruct (assign_shard strat H order st s) as [st' r] eqn:Ea. cbn [fst].
  apply assign_shard_result in Ea. destruct Ea as [n _ ->|n _ -> _|e -> _ _]; auto.
Qed.

(* whatever happens to the registry between assignment and lookup: an Ok(node) can accept writes
   in the registry as it is at the moment of the lookup, nothing panics, and fuel runs out only if
   there was less of it than one loop test per remaining attempt plus the final one *)
Lemma route_gen_result interf strat H (orders : N -> list node) s : forall fuel attempt st,
  match route_write_gen interf fuel attempt strat H orders st s with
  | (st', Done n) => eligible (st_reg st') n = true
  | (_, Failed _) => True
  | (_, Hang) => (fuel <= N.to_nat (Consts.ROUTER_MAX_ROUTE_ATTEMPTS - attempt))%nat
  | (_, Panic) => False
  end.
Proof.
  induction fuel as [|f IH]; intros attempt st; cbn [route_write_gen]; [lia|].
  destruct (Consts.ROUTER_MAX_ROUTE_ATTEMPTS <=? attempt) eqn:Ele; [exact I|].
  apply N.leb_gt in Ele.
  generalize (assign_shard_returns strat H (orders attempt) st s).
  destruct (assign_shard strat H (orders attempt) st s) as [st1 [n|e| |]]; cbn [snd]; intros [Hnh Hnp];
    [|(* Failed *) exact I|(* Panic *) congruence|(* Hang *) congruence].
  cbn [st_reg with_reg].
  destruct (aget N.eqb n (interf attempt (st_reg st1))) as [i|] eqn:Eg; [|exact I].
  destruct (can_accept_writes i) eqn:Ec.
  - (* the lookup succeeds *) apply eligible_iff. eauto.
  - (* next attempt, one unit of fuel less *)
    specialize (IH (attempt + 1) (unassign s (with_reg st1 (interf attempt (st_reg st1))))).
    destruct (route_write_gen interf f _ strat H orders _ s) as [st' [ | | | ]];
      [(* Done, Failed, Panic *) exact IH..|(* Hang *) lia].
Qed.

(* without interference the first attempt always settles it *)
Lemma route_no_interf_single strat H (orders : N -> list node) st s f attempt :
  attempt < Consts.ROUTER_MAX_ROUTE_ATTEMPTS ->
  route_write_gen no_interf (S f) attempt strat H orders st s = assign_shard strat H (orders attempt) st s.
Proof.
  intros Hlt. cbn [route_write_gen].
  apply N.leb_gt in Hlt. rewrite Hlt.
  destruct (assign_shard strat H (orders attempt) st s) as [st1 [n|e| |]] eqn:Ea; auto.
  destruct (assign_shard_done _ _ _ _ _ _ _ Ea) as [He _].
  rewrite <- (assign_shard_keeps_eligibility _ _ _ _ _ _ _ n Ea) in He.
  apply eligible_iff in He. destruct He as [i [Hg Hc]].
  unfold no_interf. now rewrite with_reg_same, Hg, Hc.
Qed.

(* a shard whose node can accept writes, also after what the other tasks do during the attempt,
   is routed to that node at once *)
Lemma route_gen_keeps interf strat H (orders : N -> list node) st s n f attempt :
  attempt < Consts.ROUTER_MAX_ROUTE_ATTEMPTS ->
  current_ok st s = Some n -> eligible (interf attempt (st_reg st)) n = true ->
  route_write_gen interf (S f) attempt strat H orders st s = (with_reg st (interf attempt (st_reg st)), Done n).
Proof.
  intros Hlt Hc He. cbn [route_write_gen].
  apply N.leb_gt in Hlt. rewrite Hlt, (assign_shard_kept _ _ _ _ _ _ Hc). cbn [st_reg with_reg].
  apply eligible_iff in He. destruct He as [i [-> ->]]. reflexivity.
Qed.

Lemma route_no_interf_first strat H order st s f :
  route_write_gen no_interf (S f) 0 strat H (fun _ => order) st s = assign_shard strat H order st s.
Proof. apply route_no_interf_single, max_attempts_pos. Qed.

Lemma route_write_is_assign strat H order st s :
  route_write strat H order st s = assign_shard strat H order st s.
Proof. apply route_no_interf_first. Qed.

(* fuel bound 1: a single loop iteration, in EVERY state (reachable or not) *)
Theorem route_terminates strat H order st s :
  snd (route_write_gen no_interf 1 0 strat H (fun _ => order) st s) <> Hang /\
  forall f, route_write_gen no_interf (S f) 0 strat H (fun _ => order) st s
            = route_write_gen no_interf 1 0 strat H (fun _ => order) st s.
Proof.
  rewrite !route_no_interf_first. split; [apply assign_shard_returns|intros f; apply route_no_interf_first].
Qed.

(* under interference: bounded, and an Ok is eligible at the moment of its lookup *)
Theorem route_bounded_under_interference interf strat H (orders : N -> list node) st s :
  snd (route_write_gen interf ROUTE_FUEL 0 strat H orders st s) <> Hang /\
  forall st' n, route_write_gen interf ROUTE_FUEL 0 strat H orders st s = (st', Done n) ->
                eligible (st_reg st') n = true.
Proof.
  generalize (route_gen_result interf strat H orders s ROUTE_FUEL 0 st).
  destruct (route_write_gen _ _ _ _ _ _ _ _) as [st1 r]. cbn [snd]. intros G. split.
  - intros ->. unfold ROUTE_FUEL in G. lia.
  - now intros st' n [= -> ->].
Qed.

Theorem route_returns strat H order st s :
  snd (route_write strat H order st s) <> Hang /\ snd (route_write strat H order st s) <> Panic.
Proof. rewrite route_write_is_assign. apply assign_shard_returns. Qed.

Theorem route_eligible strat H order st s st' n :
  route_write strat H order st s = (st', Done n) ->
  exists i, aget N.eqb n (st_reg st') = Some i /\ eligible_spec i.
Proof.
  intros Hr. apply (proj2 (route_bounded_under_interference _ _ _ _ _ _)), eligible_iff in Hr. destruct Hr as [i [Hg Hc]].
  exists i. split; [exact Hg|]. now apply can_accept_writes_spec.
Qed.

(* the returned node could already accept writes before the call (routing changes nobody's
   status, type or load) *)
Theorem route_eligible_before strat H order st s st' n :
  route_write strat H order st s = (st', Done n) -> eligible (st_reg st) n = true.
Proof. rewrite route_write_is_assign. intros Ha. exact (proj1 (assign_shard_done _ _ _ _ _ _ _ Ha)). Qed.

Theorem route_result_assigned strat H order st s st' n :
  route_write strat H order st s = (st', Done n) -> aget N.eqb s (st_asg st') = Some n.
Proof. rewrite route_write_is_assign. intros Ha. exact (proj2 (assign_shard_done _ _ _ _ _ _ _ Ha)). Qed.

(* availability: an error only when no node can accept writes *)
Theorem route_available strat H order st s :
  hashes_ok H ->
  (exists n, eligible (st_reg st) n = true) ->
  exists n, snd (route_write strat H order st s) = Done n.
Proof.
  intros Hh [m Hm]. rewrite route_write_is_assign.
  destruct (assign_shard strat H order st s) as [st' r] eqn:Ea.
  destruct (assign_shard_result _ _ _ _ _ _ _ Ea) as [n|n|e _ _ Hnone]; cbn; eauto.
  apply (healthy_eligible order) in Hm. rewrite (Hnone Hh) in Hm. contradiction.
Qed.

(* the property in one statement: after every history, under every strategy, for every shard
   and every iteration order, route_write returns — either a node that is registered, healthy,
   of an ingesting type and below the load threshold (and the shard is assigned to exactly that
   node), or an error; it neither hangs nor panics *)
Theorem route_total_and_eligible strat H h s order :
  match route_write strat H order (run strat H h) s with
  | (st', Done n) =>
      (exists i, aget N.eqb n (st_reg st') = Some i /\ eligible_spec i) /\
      aget N.eqb s (st_asg st') = Some n
  | (_, Failed _) => True
  | (_, Hang) | (_, Panic) => False
  end.
Proof.
  generalize (route_returns strat H order (run strat H h) s).
  destruct (route_write strat H order (run strat H h) s) as [st' [n|e| |]] eqn:Er; cbn [snd]; intros [Hh Hp].
  - (* Done *) exact (conj (route_eligible _ _ _ _ _ _ _ Er) (route_result_assigned _ _ _ _ _ _ _ Er)).
  - (* Failed *) exact I.
  - (* Panic *) exact (Hp eq_refl).
  - (* Hang *) exact (Hh eq_refl).
Qed.

(* route_write under interference acts on the assignments by inserts and removals of the routed
   shard only: what both preserve, it preserves *)
Lemma route_gen_asg_invariant (Q : assignments -> Prop) interf strat H (orders : N -> list node) s :
  (forall n a, Q a -> Q (aset N.eqb s n a)) ->
  (forall a, Q a -> Q (adel N.eqb s a)) ->
  forall fuel attempt st,
    Q (st_asg st) -> Q (st_asg (fst (route_write_gen interf fuel attempt strat H orders st s))).
Proof.
  intros Hset Hdel. induction fuel as [|f IH]; intros attempt st HQ; cbn [route_write_gen]; [exact HQ|].
  destruct (Consts.ROUTER_MAX_ROUTE_ATTEMPTS <=? attempt); [exact HQ|].
  pose proof (assign_shard_asg_invariant Q strat H (orders attempt) st s Hset HQ) as Hassign.
  destruct (assign_shard strat H (orders attempt) st s) as [st1 [n|e| |]]; try exact Hassign.
  cbn [st_reg with_reg].
  destruct (aget N.eqb n (interf attempt (st_reg st1))) as [i|]; [|exact Hassign].
  destruct (can_accept_writes i); [exact Hassign|].
  apply IH, Hdel, Hassign.
Qed.

Definition asg_wf (st : state) : Prop := NoDup (akeys (st_asg st)).

Lemma route_gen_asg_wf interf strat H (orders : N -> list node) s fuel attempt st :
  asg_wf st -> asg_wf (fst (route_write_gen interf fuel attempt strat H orders st s)).
Proof.
  apply (route_gen_asg_invariant (fun a => NoDup (akeys a))).
  - intros n a. apply (nodup_aset N.eqb Neqb_spec).
  - intros a. apply (nodup_adel N.eqb).
Qed.

Lemma route_gen_other_shards interf strat H (orders : N -> list node) s s' fuel attempt st :
  s' <> s ->
  aget N.eqb s' (st_asg (fst (route_write_gen interf fuel attempt strat H orders st s))) = aget N.eqb s' (st_asg st).
Proof.
  intros Hne.
  apply (route_gen_asg_invariant (fun a => aget N.eqb s' a = aget N.eqb s' (st_asg st))); [| |reflexivity].
  - intros n a <-. now apply (aget_aset_other N.eqb Neqb_spec).
  - intros a <-. now apply (aget_adel_other N.eqb Neqb_spec).
Qed.

Lemma rebalance_moves_In H r a s o x :
  In (s, o, x) (rebalance_moves H r a) <->
  In (s, o) a /\ ring_get r (shard_hash H s) = Some x /\ x <> o.
Proof.
  unfold rebalance_moves. rewrite in_flat_map. split.
  - intros [[qs qn] [Hq Hin]]. cbn in Hin.
    destruct (ring_get r (shard_hash H qs)) as [y|] eqn:Ey; [|contradiction].
    destruct (N.eqb_spec y qn) as [|Hne]; [contradiction|]. destruct Hin as [[= -> -> ->]|[]]. auto.
  - intros (Hin & Hx & Hne). exists (s, o). split; auto.
    cbn. rewrite Hx. apply N.eqb_neq in Hne. rewrite Hne. now left.
Qed.

Lemma rebalance_moves_nil H a : rebalance_moves H [] a = [].
Proof. unfold rebalance_moves. induction a as [|p t IH]; cbn; auto. Qed.

(* after a list of moves a shard is where its last move put it *)
Lemma apply_moves_get s moves a :
  (forall mv, In mv moves -> fst (fst mv) <> s) /\ aget N.eqb s (apply_moves moves a) = aget N.eqb s a \/
  exists mv, In mv moves /\ fst (fst mv) = s /\ aget N.eqb s (apply_moves moves a) = Some (snd mv).
Proof.
  unfold apply_moves. induction moves as [|mv t IH] using rev_ind; [left; split; [intros _ []|reflexivity]|].
  rewrite fold_left_app. cbn. destruct (N.eq_dec (fst (fst mv)) s) as [<-|Hne].
  - right. exists mv. rewrite in_app_iff. cbn. rewrite (aget_aset_same N.eqb Neqb_spec). auto.
  - rewrite (aget_aset_other N.eqb Neqb_spec) by congruence.
    destruct IH as [[Hnone E]|[mv' (Hin & Hs & E)]].
    + left. split; auto. intros mv' Hin. apply in_app_iff in Hin. destruct Hin as [Hin|[<-|[]]]; auto.
    + right. exists mv'. rewrite in_app_iff. auto.
Qed.

(* rebalance puts every assigned shard on the node the ring names for it, and assigns no other *)
Lemma rebalance_moves_get H r a s :
  aget N.eqb s (apply_moves (rebalance_moves H r a) a) =
  match aget N.eqb s a, ring_get r (shard_hash H s) with
  | Some _, Some x => Some x
  | o, _ => o
  end.
Proof.
  destruct (apply_moves_get s (rebalance_moves H r a) a) as [[Hnone ->]|[[[s' o] x] (Hin & Hs & ->)]].
  - destruct (aget N.eqb s a) as [o|] eqn:Ea; auto.
    destruct (ring_get r (shard_hash H s)) as [x|] eqn:Ex; auto.
    destruct (N.eq_dec x o) as [->|Hne]; auto.
    apply (aget_In N.eqb Neqb_spec) in Ea. destruct (Hnone (s, o, x)); auto. now apply rebalance_moves_In.
  - cbn in Hs. subst s'. apply rebalance_moves_In in Hin. destruct Hin as (Hin & -> & _).
    apply (in_map fst), (in_keys_aget N.eqb Neqb_spec) in Hin. cbn in Hin. destruct Hin as [o' ->]. reflexivity.
Qed.

Lemma fold_update_shards_asg nodes st :
  st_asg (fold_left (fun acc (p : node * ninfo) => update_node_shards acc (fst p)) nodes st) = st_asg st.
Proof. now apply (fold_left_inv (fun acc => st_asg acc = st_asg st)). Qed.

Lemma rebalance_asg H order st :
  st_asg (fst (rebalance H order st)) =
  apply_moves (rebalance_moves H (ring_build H (healthy_ingesters order (st_reg st))) (st_asg st)) (st_asg st).
Proof.
  unfold rebalance. destruct (healthy_ingesters order (st_reg st)) as [|p t]; cbn [fst].
  - unfold ring_build. cbn [fold_left]. now rewrite rebalance_moves_nil.
  - apply fold_update_shards_asg.
Qed.

Lemma rebalance_eligible H order st m :
  eligible (st_reg (fst (rebalance H order st))) m = eligible (st_reg st) m.
Proof.
  unfold rebalance. destruct (healthy_ingesters order (st_reg st)) as [|p t]; cbn [fst]; [reflexivity|].
  apply (fold_left_inv (fun acc => eligible (st_reg acc) m = eligible (st_reg st) m)); [|reflexivity].
  intros a b _ <-. apply eligible_update_node_shards.
Qed.

Lemma rebalance_get H order st s :
  aget N.eqb s (st_asg (fst (rebalance H order st))) =
  match aget N.eqb s (st_asg st),
        ring_get (ring_build H (healthy_ingesters order (st_reg st))) (shard_hash H s) with
  | Some _, Some x => Some x
  | o, _ => o
  end.
Proof. rewrite rebalance_asg. apply rebalance_moves_get. Qed.

Lemma rebalance_asg_wf H order st : asg_wf st -> asg_wf (fst (rebalance H order st)).
Proof.
  unfold asg_wf. rewrite rebalance_asg. apply (fold_left_inv (fun a => NoDup (akeys a))).
  intros a mv _. apply (nodup_aset N.eqb Neqb_spec).
Qed.

(* after a rebalance that found a healthy ingester, every assigned shard sits on a node that
   can accept writes *)
Theorem rebalance_all_eligible H order st st' m s n :
  rebalance H order st = (st', m) ->
  healthy_ingesters order (st_reg st) <> [] ->
  hashes_ok H ->
  aget N.eqb s (st_asg st') = Some n -> eligible (st_reg st') n = true.
Proof.
  intros Hr Hne Hh Hget. apply (f_equal fst) in Hr. cbn [fst] in Hr. subst st'.
  rewrite rebalance_eligible. rewrite rebalance_get in Hget.
  destruct (aget N.eqb s (st_asg st)); [|discriminate].
  destruct (ring_build_get H _ (shard_hash H s) Hh Hne) as [x [Ex Hin]]. rewrite Ex in Hget.
  injection Hget as <-. now apply (healthy_eligible order).
Qed.

(* `step` is taken apart by cbn below; what it calls stays folded, so that the lemmas about
   route_write_gen, rebalance and heartbeat apply to what cbn leaves *)
Arguments route_write : simpl never.
Arguments route_write_gen : simpl never.
Arguments rebalance : simpl never.
Arguments heartbeat : simpl never.

(* the ops on the registry leave st_asg as it is *)
Lemma step_asg strat H st o :
  st_asg (fst (step strat H st o)) =
  match o with
  | ORebalance order => st_asg (fst (rebalance H order st))
  | ORoute s order => st_asg (fst (route_write strat H order st s))
  | ORouteI s orders specs =>
      st_asg (fst (route_write_gen (interf_of specs) ROUTE_FUEL 0 strat H (order_at orders) st s))
  | _ => st_asg st
  end.
Proof.
  destruct o as [| |n| | | | | | |]; cbn; rewrite ?fst_let; try reflexivity.
  (* OHeartbeat *) now destruct (heartbeat n (st_reg st)).
Qed.

Lemma step_asg_wf strat H st o : asg_wf st -> asg_wf (fst (step strat H st o)).
Proof.
  intros Hwf. unfold asg_wf. rewrite step_asg. destruct o; try exact Hwf.
  - (* ORebalance *) now apply rebalance_asg_wf.
  - (* ORoute *) now apply route_gen_asg_wf.
  - (* ORouteI *) now apply route_gen_asg_wf.
Qed.

Lemma run_from_asg_wf strat H h : forall st, asg_wf st -> asg_wf (run_from strat H st h).
Proof. induction h as [|o t IH]; cbn; intros st Hwf; [exact Hwf|]. now apply IH, step_asg_wf. Qed.

(* a shard is assigned to one node at a time, after every history *)
Theorem one_node_per_shard strat H h s n1 n2 :
  In (s, n1) (st_asg (run strat H h)) -> In (s, n2) (st_asg (run strat H h)) -> n1 = n2.
Proof.
  pose proof (run_from_asg_wf strat H h init_state (NoDup_nil _)) as Hwf. intros H1 H2.
  apply (In_aget_nodup N.eqb Neqb_spec _ _ _ Hwf) in H1, H2. congruence.
Qed.

(* what one step can do to the assignment of a shard: nothing, unless the step is a rebalance,
   or a route of that very shard while it has no node that can accept writes — at the start, or
   after the interference of the first attempt *)
Theorem step_asg_change strat H st o s :
  aget N.eqb s (st_asg (fst (step strat H st o))) = aget N.eqb s (st_asg st) \/
  (exists order, o = ORebalance order) \/
  (exists order, o = ORoute s order /\ current_ok st s = None) \/
  (exists orders specs, o = ORouteI s orders specs /\
     forall n, current_ok st s = Some n -> eligible (interf_of specs 0 (st_reg st)) n = false).
Proof.
  rewrite step_asg. destruct o as [| | | | | | |order|s0 order|s0 orders specs]; try (left; reflexivity).
  - (* ORebalance *) right. left. now exists order.
  - (* ORoute *) destruct (N.eq_dec s s0) as [->|Hne]; [|left; now apply route_gen_other_shards].
    destruct (current_ok st s0) as [n|] eqn:Ec.
    + left. now rewrite route_write_is_assign, (assign_shard_kept _ _ _ _ _ _ Ec).
    + right. right. left. now exists order.
  - (* ORouteI *) destruct (N.eq_dec s s0) as [->|Hne]; [|left; now apply route_gen_other_shards].
    destruct (current_ok st s0) as [n|] eqn:Ec; [destruct (eligible (interf_of specs 0 (st_reg st)) n) eqn:Ei|].
    + left. unfold ROUTE_FUEL. now rewrite (route_gen_keeps _ _ _ _ _ _ _ _ _ max_attempts_pos Ec Ei).
    + right. right. right. exists orders, specs. split; [reflexivity|]. now intros n' [= <-].
    + right. right. right. exists orders, specs. split; [reflexivity|discriminate].
Qed.

(* a shard's assignment changes only by a rebalance, by routing that very shard while its node
   cannot accept writes, or by a route of that very shard under interference *)
Theorem moves_only_when_ineligible_or_rebalanced strat H st o st' r s n :
  step strat H st o = (st', r) ->
  aget N.eqb s (st_asg st) = Some n ->
  aget N.eqb s (st_asg st') <> Some n ->
  (exists order, o = ORebalance order) \/
  (exists order, o = ORoute s order /\ eligible (st_reg st) n = false) \/
  (exists orders specs, o = ORouteI s orders specs).
Proof.
  intros Hs Hold Hnew. apply (f_equal fst) in Hs. cbn [fst] in Hs. subst st'.
  destruct (step_asg_change strat H st o s) as [E|[?|[[order [-> Hc]]|(orders & specs & -> & _)]]].
  - (* unchanged *) congruence.
  - (* ORebalance *) now left.
  - (* ORoute *) right. left. exists order. split; [reflexivity|].
    unfold current_ok in Hc. rewrite Hold in Hc. destruct (eligible (st_reg st) n); congruence.
  - (* ORouteI *) right. right. now exists orders, specs.
Qed.

(* the same, along histories: a shard leaves its node only by a rebalance, by routing that very
   shard while its node cannot accept writes, or by a route of that very shard during which
   other tasks changed the registry (the node then failed the lookup of some attempt) *)
Theorem moves_only_when_ineligible_or_rebalanced_hist strat H h o s n :
  let st := run strat H h in
  let st' := run strat H (h ++ [o]) in
  aget N.eqb s (st_asg st) = Some n ->
  aget N.eqb s (st_asg st') <> Some n ->
  (exists order, o = ORebalance order) \/
  (exists order, o = ORoute s order /\ eligible (st_reg st) n = false) \/
  (exists orders specs, o = ORouteI s orders specs).
Proof.
  intros st st'. subst st'. unfold run, run_from. rewrite fold_left_app.
  (* the last state is the first component of the step from st *)
  exact (moves_only_when_ineligible_or_rebalanced strat H st o _ _ s n (surjective_pairing _)).
Qed.

(* a shard becomes assigned only by being routed *)
Theorem assigned_only_by_route strat H st o st' r s :
  step strat H st o = (st', r) ->
  aget N.eqb s (st_asg st) = None ->
  aget N.eqb s (st_asg st') <> None ->
  (exists order, o = ORoute s order) \/ (exists orders specs, o = ORouteI s orders specs).
Proof.
  intros Hs Hold Hnew. apply (f_equal fst) in Hs. cbn [fst] in Hs. subst st'.
  destruct (step_asg_change strat H st o s) as [E|[[order ->]|[[order [-> _]]|(orders & specs & -> & _)]]].
  - (* unchanged *) congruence.
  - (* ORebalance assigns no new shard *) destruct Hnew. now rewrite step_asg, rebalance_get, Hold.
  - (* ORoute *) left. now exists order.
  - (* ORouteI *) right. now exists orders, specs.
Qed.

Lemma legacy_route_unfold strat H order st s f st1 n i :
  assign_shard_gen legacy_assign_consistent_hash strat H order st s = (st1, Done n) ->
  aget N.eqb n (st_reg st1) = Some i -> can_accept_writes i = false ->
  legacy_route_write (S f) strat H order st s = legacy_route_write f strat H order (unassign s st1) s.
Proof. intros Ha Hg Hc. cbn [legacy_route_write]. now rewrite Ha, Hg, Hc. Qed.

(* a state that one turn of the recursion (assign, see that the node cannot accept writes,
   unassign, call again) leads back to itself never returns *)
Lemma legacy_loops strat H order st s st1 n i :
  assign_shard_gen legacy_assign_consistent_hash strat H order st s = (st1, Done n) ->
  aget N.eqb n (st_reg st1) = Some i -> can_accept_writes i = false -> unassign s st1 = st ->
  forall fuel, snd (legacy_route_write fuel strat H order st s) = Hang.
Proof.
  intros Ha Hg Hc Hu. induction fuel as [|f IH]; [reflexivity|].
  now rewrite (legacy_route_unfold _ _ _ _ _ _ _ _ _ Ha Hg Hc), Hu.
Qed.

(* the loop witness for the code before the fix (legacy_route_write): one ingester, shard 2
   routed to it, the node drained.  Routing shard 3 then assigns it to the drained node 0
   (witness_assigned_state) and takes it away again, which leaves 3 in the node's shard list
   (witness_loop_state); every later turn ends in the state it started in *)
Definition witness_hashes : hashes := mkHashes (fun _ => [5%Z]) (fun _ => 0%Z).
Definition witness_state : state :=
  mkState [(0, mkNode Ingester Draining 0 [2])] [(2, 0)] [(5%Z, 0)].
Definition witness_assigned_state : state :=
  mkState [(0, mkNode Ingester Draining 0 [2; 3])] [(2, 0); (3, 0)] [(5%Z, 0)].
Definition witness_loop_state : state :=
  mkState [(0, mkNode Ingester Draining 0 [2; 3])] [(2, 0)] [(5%Z, 0)].

Theorem prefix_route_loops_forever : forall fuel,
  snd (legacy_route_write fuel ConsistentHash witness_hashes [0] witness_state 3) = Hang.
Proof.
  intros [|f]; [reflexivity|].
  rewrite (legacy_route_unfold _ _ _ _ _ _ witness_assigned_state 0 (mkNode Ingester Draining 0 [2; 3]))
    by (vm_compute; reflexivity).
  apply (legacy_loops _ _ _ witness_loop_state _ witness_assigned_state 0 (mkNode Ingester Draining 0 [2; 3]));
    vm_compute; reflexivity.
Qed.

(* the same state, repaired code: an error (no node can accept writes), at once *)
Example fixed_route_on_witness :
  snd (route_write ConsistentHash witness_hashes [0] witness_state 3) = Failed E_NO_HEALTHY.
Proof. vm_compute. reflexivity. Qed.

(* the witness state is what the history of DESIGN §13 (stale-ring-unbounded-retry) produces *)
Example witness_state_reached :
  run ConsistentHash witness_hashes [ORegister 0 Ingester Healthy 0 []; ORoute 2 [0]; ODrain 0] = witness_state.
Proof. vm_compute. reflexivity. Qed.


Definition ex_hashes : hashes :=
  mkHashes (fun n => [Z.of_N n * 100 + 10; Z.of_N n * 100 + 50]%Z) (fun s => (Z.of_N s * 37)%Z).
Definition ex_history : list op :=
  [ORegister 0 Ingester Healthy 0 []; ORegister 1 Combined Healthy 10 []; ORoute 1 [0; 1]; ORoute 4 [1; 0]].

(* route returns Ok (route_eligible is not vacuous) *)
Example ex_route_ok :
  snd (route_write ConsistentHash ex_hashes [0; 1] (run ConsistentHash ex_hashes ex_history) 1) = Done 0.
Proof. vm_compute. reflexivity. Qed.

(* a shard moves because its node was drained (the premises of moves_only_... are satisfiable) *)
Example ex_move_when_ineligible :
  let st := run ConsistentHash ex_hashes (ex_history ++ [ODrain 0]) in
  aget N.eqb 1 (st_asg st) = Some 0 /\
  aget N.eqb 1 (st_asg (fst (step ConsistentHash ex_hashes st (ORoute 1 [0; 1])))) = Some 1.
Proof. vm_compute. split; reflexivity. Qed.

(* interference: both nodes are drained by somebody else between assignment and lookup at every
   attempt — the call still returns: the second attempt finds no healthy ingester *)
Example ex_interference_bounded :
  snd (route_write_gen (fun _ r => reg_update 0 (set_status Draining) (reg_update 1 (set_status Draining) r))
         ROUTE_FUEL 0 ConsistentHash ex_hashes (fun _ => [0; 1])
         (run ConsistentHash ex_hashes ex_history) 7) = Failed E_NO_HEALTHY.
Proof. vm_compute. reflexivity. Qed.

(* a rebalance that finds healthy ingesters (premise of rebalance_all_eligible) *)
Example ex_rebalance_premises :
  healthy_ingesters [0; 1] (st_reg (run ConsistentHash ex_hashes ex_history)) <> [] /\
  (forall k, vnode_hashes ex_hashes k <> []).
Proof. split; [vm_compute; discriminate|intros k; cbn; discriminate]. Qed.

(* a shard moves during a route because another task drained its node between the assignment
   and the lookup (third case of moves_only_when_ineligible_or_rebalanced): the retry is taken
   once and the call returns the other node *)
Example ex_move_under_interference :
  let h := [ORegister 0 Ingester Healthy 0 []; ORegister 1 Ingester Healthy 0 []; ORoute 1 [0; 1]] in
  let st := run RoundRobin ex_hashes h in
  aget N.eqb 1 (st_asg st) = Some 0 /\ eligible (st_reg st) 0 = true /\
  step RoundRobin ex_hashes st (ORouteI 1 [[0; 1]] [[RStatus 0 Draining]])
  = (mkState [(0, mkNode Ingester Draining 0 [1]); (1, mkNode Ingester Healthy 0 [1])] [(1, 1)] [],
     RRoute (Done 1)).
Proof. vm_compute. repeat split; reflexivity. Qed.
