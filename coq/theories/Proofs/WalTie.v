(* Proofs/WalTie.v — the operations the model attributes to the two WAL call
   sites of the ingester ARE what the call sites pass.

   generated/Funs.v is re-translated on every run (lib/exprtrans.py,
   lib/funs.d/wal.py) from src/ingester/mod.rs: the guard and the argument of
   `truncate_before` and of `persist_flushed_seq` in flush_batches, the guard
   and the argument of `truncate_before` and the argument of
   `read_entries_after` in ensure_wal.  flush_ops / ensure_wal_ops of
   Model/Wal.v are proved equal to the lists built from these translated
   expressions, so the caller discipline proved for them (flush_disciplined,
   ensure_wal_disciplined) is a statement about the code as it is now; a
   changed bound (e.g. `flushed_up_to + 1`) breaks the theorem below.
   Not captured: the order of the two calls inside flush_batches, and how
   last_wal_seq is maintained (the harness drives the real Ingester for that). *)
From CS Require Import Base.Prelude Model.Wal.
From CSGen Require Import Consts Funs.
Open Scope N_scope.

(* the tail of flush_batches, with flushed_up_to = s *)
Definition flush_ops_code (s : N) : list op :=
  let z := Z.of_N s in
  if Funs.wal_flush_guard z
  then [OTruncate (Z.to_N (Funs.wal_flush_truncate_bound z));
        OPersist (Z.to_N (Funs.wal_flush_persist_mark z))]
  else [].

(* ensure_wal: open, then the guarded truncate_before *)
Definition ensure_wal_ops_code (max : N) (d : disk) : list op :=
  let z := Z.of_N (load_flushed d) in
  OOpen max ::
  (if Funs.wal_ensure_guard z then [OTruncate (Z.to_N (Funs.wal_ensure_truncate_bound z))] else []).

(* third clause: the argument of read_entries_after in ensure_wal is the mark it
   loaded, so exactly the entries above it are replayed *)
Theorem wal_call_sites_are_the_code :
  (forall s, flush_ops s = flush_ops_code s) /\
  (forall max d, ensure_wal_ops max d = ensure_wal_ops_code max d) /\
  (forall fl, Z.to_N (Funs.wal_ensure_read_after (Z.of_N fl)) = fl).
Proof.
  split; [|split].
  - intros [|p]; reflexivity.
  - intros max d. unfold ensure_wal_ops, ensure_wal_ops_code. destruct (load_flushed d) as [|p]; reflexivity.
  - intros [|p]; reflexivity.
Qed.
