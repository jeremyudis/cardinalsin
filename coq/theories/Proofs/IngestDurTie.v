(* Proofs/IngestDurTie.v — the arguments and guards of the WAL calls in the
   model's flush and recovery steps ARE the expressions at the call sites of
   src/ingester/mod.rs: generated/Funs.v is re-translated from /repo on every
   run (lib/exprtrans.py, lib/funs.d/ingestdur.py), so a changed truncation
   bound, guard or persisted value makes one of these lemmas unprovable and
   re-opens C01. *)
From CS Require Import Base.Prelude Model.Ingest Model.IngestDur.
From CSGen Require Import Consts Funs.
Open Scope N_scope.

Definition zN (f : Z -> Z) (n : N) : N := Z.to_N (f (Z.of_N n)).

Lemma guard_pos n : Z.gtb (Z.of_N n) 0 = (0 <? n).
Proof. destruct n; reflexivity. Qed.

(* flush_batches: `if flushed_up_to > 0 { truncate_before(flushed_up_to) ... }` *)
Lemma flush_truncate_is_code hw f d v s k :
  dflush_step hw f d v (QTrunc s k) =
  if Funs.ingest_flush_mark_guard (Z.of_N s)
  then Some (if hw then set_segs d (trunc (zN Funs.ingest_flush_truncate_bound s) (d_segs d)) else d,
             v, GPc (QPersist s k))
  else Some (d, v, GOk k).
Proof.
  unfold Funs.ingest_flush_mark_guard, zN, Funs.ingest_flush_truncate_bound.
  rewrite guard_pos, N2Z.id. reflexivity.
Qed.

(* flush_batches: last_flushed_seq.store(flushed_up_to); persist_flushed_seq(dir, flushed_up_to) *)
Lemma flush_persist_is_code hw f d v s k :
  dflush_step hw f d v (QPersist s k) =
  Some (set_flushed d (zN Funs.ingest_flush_persist_value s),
        set_lfs v (zN Funs.ingest_flush_lfs_value s), GPc (QFin k)).
Proof.
  unfold zN, Funs.ingest_flush_persist_value, Funs.ingest_flush_lfs_value. rewrite N2Z.id. reflexivity.
Qed.

(* ensure_wal: read_entries_after(flushed_seq) *)
Lemma recover_replay_is_code d :
  replay_sbs d = filter (fun e => zN Funs.ingest_recover_read_after (d_flushed d) <? fst e) (wal_sbs d).
Proof. unfold zN, Funs.ingest_recover_read_after. rewrite N2Z.id. reflexivity. Qed.

(* ensure_wal: `if flushed_seq > 0 { wal.truncate_before(flushed_seq + 1) }` *)
Lemma recover_truncate_is_code f d v maxs fl0 :
  drstep f d v (QRFinish maxs fl0) =
  (if Funs.ingest_recover_truncate_guard (Z.of_N fl0)
   then set_segs d (trunc (zN Funs.ingest_recover_truncate_bound fl0) (d_segs d)) else d,
   if fl0 <? maxs then set_lws v maxs else v, RUp).
Proof.
  unfold Funs.ingest_recover_truncate_guard, zN, Funs.ingest_recover_truncate_bound.
  rewrite guard_pos. replace (Z.to_N (Z.of_N fl0 + 1)) with (fl0 + 1) by lia. reflexivity.
Qed.
