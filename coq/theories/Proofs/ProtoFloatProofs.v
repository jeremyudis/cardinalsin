(* Proofs/ProtoFloatProofs.v — the value routing of convert_prom_to_arrow
   (Model/ProtoConv.route) stores a numerically equal value: an integer column
   receives exactly the real value of the sample; the f64 column receives the
   sample's own bit pattern.  Over Flocq's binary64. *)
From Coq Require Import ZArith List Reals Lia Lra Floats.SpecFloat.
From Flocq Require Import Core IEEE754.BinarySingleNaN IEEE754.Binary IEEE754.Bits.
From CS Require Import Base.Prelude Model.Proto Model.ProtoConv.
Open Scope R_scope.

Local Instance prec_gt_0_53 : Prec_gt_0 53 := eq_refl Lt.
Local Instance prec_lt_emax_53 : Prec_lt_emax 53 1024 := eq_refl Lt.

Notation B2R64 := (@BinarySingleNaN.B2R 53 1024).
Notation fexp64 := (SpecFloat.fexp 53 1024).

Lemma F2R_int_format : forall (m e : Z),
  ((0 <= e)%Z \/ ((e < 0)%Z /\ (m mod 2 ^ (- e) = 0)%Z)) ->
  generic_format radix2 (FIX_exp 0) (F2R (Float radix2 m e)).
Proof.
  intros m e [He|[He Hm]].
  - apply generic_format_F2R. intros _. unfold cexp, FIX_exp. exact He.
  - apply Z.mod_divide in Hm; [|apply Z.pow_nonzero; lia].
    destruct Hm as [k Hk].
    replace (F2R (Float radix2 m e)) with (F2R (Float radix2 k 0)).
    + apply generic_format_F2R. intros _. unfold cexp, FIX_exp. lia.
    + rewrite (F2R_change_exp radix2 e k 0) by lia. f_equal. f_equal.
      rewrite Hk. rewrite Z.sub_0_l. reflexivity.
Qed.

Lemma int_exact : forall x : f64,
  f64_is_int x = true -> B2R64 x = IZR (BinarySingleNaN.Btrunc x).
Proof.
  intros x Hi. rewrite BinarySingleNaN.Btrunc_correct by exact (eq_refl Lt).
  symmetry. apply round_generic; [apply valid_rnd_ZR|].
  destruct x as [s|s| |s m e Hb]; cbn [f64_is_int] in Hi; try discriminate.
  - (* zero *) cbn. apply generic_format_0.
  - (* finite *) cbn [BinarySingleNaN.B2R]. apply F2R_int_format.
    destruct (Z.leb_spec 0 e) as [He|He]; [left; exact He|right].
    split; [exact He|]. apply Z.eqb_eq in Hi.
    destruct s; cbn [cond_Zopp]; [|exact Hi].
    (* negative mantissa *)
    apply Z.mod_opp_l_z; [apply Z.pow_nonzero; lia|exact Hi].
Qed.

Lemma B2R_of_SF : forall (x : f64) s m e,
  BinarySingleNaN.B2SF x = S754_finite s m e ->
  B2R64 x = F2R (Float radix2 (cond_Zopp s (Z.pos m)) e).
Proof.
  intros x s m e H. rewrite <- BinarySingleNaN.SF2R_B2SF, H. reflexivity.
Qed.

(* mantissa 2^52, exponent 11: the double of magnitude 2^63 *)
Lemma B2R_pow63 : forall (x : f64) s,
  BinarySingleNaN.B2SF x = S754_finite s 4503599627370496 11 ->
  B2R64 x = IZR (cond_Zopp s (i64_max + 1)).
Proof.
  intros x s H. rewrite (B2R_of_SF x s _ _ H).
  unfold F2R. cbn [Fnum Fexp]. change (bpow radix2 11) with (IZR 2048).
  rewrite <- mult_IZR. destruct s; reflexivity.
Qed.

(* i64::MAX as f64 rounds up to 2^63 *)
Lemma of_int_max_value : B2R64 (f64_of_int i64_max) = IZR (i64_max + 1).
Proof. apply (B2R_pow63 _ false). vm_compute. reflexivity. Qed.

Lemma of_int_min_value : B2R64 (f64_of_int i64_min) = IZR i64_min.
Proof. apply (B2R_pow63 _ true). vm_compute. reflexivity. Qed.

Lemma epsilon_le_1 : B2R64 F64_EPSILON <= 1.
Proof.
  rewrite (B2R_of_SF F64_EPSILON false 4503599627370496 (-104)) by (vm_compute; reflexivity).
  unfold F2R. cbn [Fnum Fexp cond_Zopp].
  change (IZR 4503599627370496) with (IZR (Zpower radix2 52)). rewrite IZR_Zpower by lia.
  rewrite <- bpow_plus. change 1 with (bpow radix2 0). apply bpow_le. lia.
Qed.

(* the lossless test fails below -2^63 *)
Lemma check_fails_below_min : forall x : f64,
  f64_is_finite x = true ->
  B2R64 x <= IZR i64_min - 1 ->
  f64_lt (f64_abs (f64_sub (f64_of_int i64_min) x)) F64_EPSILON = false.
Proof.
  intros x Fx Hx.
  set (a := f64_of_int i64_min).
  assert (Fa : BinarySingleNaN.is_finite a = true) by (vm_compute; reflexivity).
  pose proof (@BinarySingleNaN.Bminus_correct 53 1024 (eq_refl Lt) (eq_refl Lt) mode_NE a x Fa Fx) as Hm.
  fold (f64_sub a x) in Hm.
  set (d := B2R64 a - B2R64 x) in *.
  assert (Hneg : IZR i64_min <= 0) by (apply IZR_le; discriminate).
  assert (Hd1 : 1 <= d).
  { unfold d, a. rewrite of_int_min_value. lra. }
  assert (Hg1 : generic_format radix2 fexp64 1).
  { change 1 with (bpow radix2 0). apply generic_format_bpow. vm_compute. discriminate. }
  assert (Hr1 : 1 <= round radix2 fexp64 (round_mode mode_NE) d).
  { apply round_ge_generic; [apply (@BinarySingleNaN.fexp_correct 53 1024 (eq_refl Lt))|apply valid_rnd_N|exact Hg1|exact Hd1]. }
  assert (Hrmax : round radix2 fexp64 (round_mode mode_NE) d < bpow radix2 1024).
  { eapply Rle_lt_trans; [|apply (BinarySingleNaN.abs_B2R_lt_emax _ _ x)].
    apply round_le_generic; [apply (@BinarySingleNaN.fexp_correct 53 1024 (eq_refl Lt))|apply valid_rnd_N| |].
    - apply generic_format_abs. apply (@BinarySingleNaN.generic_format_B2R 53 1024).
    - unfold d, a. rewrite of_int_min_value.
      rewrite Rabs_left by lra. lra. }
  rewrite Rabs_pos_eq in Hm by lra.
  destruct (Rlt_bool_spec (round radix2 fexp64 (round_mode mode_NE) d) (bpow radix2 1024)) as [_|Hc]; [|lra].
  destruct Hm as (Hv & Hf & _).
  unfold f64_lt, f64_abs.
  rewrite BinarySingleNaN.Bltb_correct.
  - rewrite BinarySingleNaN.B2R_Babs. apply Rlt_bool_false.
    rewrite Hv. rewrite Rabs_pos_eq by lra.
    eapply Rle_trans; [apply epsilon_le_1|exact Hr1].
  - rewrite BinarySingleNaN.is_finite_Babs. exact Hf.
  - vm_compute. reflexivity.
Qed.

Theorem value_equal : forall bits : N,
  match route bits with
  | RU64 u => f64_is_finite (f64_of_bits bits) = true /\
              B2R64 (f64_of_bits bits) = IZR (Z.of_N u) /\ (Z.of_N u <= i64_max)%Z
  | RI64 i => f64_is_finite (f64_of_bits bits) = true /\
              B2R64 (f64_of_bits bits) = IZR i /\ (i64_min <= i < 0)%Z
  | RF64 b => b = bits
  end.
Proof.
  intro bits. unfold route. set (x := f64_of_bits bits).
  destruct (f64_is_finite x) eqn:Fx; cbn [andb]; [|reflexivity].
  destruct (f64_is_int x) eqn:Ix; cbn [andb]; [|reflexivity].
  destruct (f64_lt x (f64_of_int i64_max)) eqn:Lx; [|reflexivity].
  pose proof (int_exact x Ix) as Hex.
  unfold f64_to_i64. set (z := BinarySingleNaN.Btrunc x) in *.
  (* x < 2^63 as reals, hence z <= i64::MAX *)
  assert (Hz : (z <= i64_max)%Z).
  { unfold f64_lt in Lx. rewrite BinarySingleNaN.Bltb_correct in Lx by (exact Fx || (vm_compute; reflexivity)).
    destruct (Rlt_bool_spec (B2R64 x) (B2R64 (f64_of_int i64_max))) as [H|H]; [|discriminate].
    rewrite of_int_max_value, Hex in H. apply lt_IZR in H. lia. }
  unfold sat_i64. destruct (Z.ltb_spec z i64_min) as [Hlow|Hlow].
  - (* below i64::MIN: the saturated value fails the lossless test *)
    rewrite check_fails_below_min; [reflexivity|exact Fx|].
    rewrite Hex, <- minus_IZR. apply IZR_le. lia.
  - destruct (Z.ltb_spec i64_max z) as [Hhi|_]; [lia|].
    destruct (f64_lt (f64_abs (f64_sub (f64_of_int z) x)) F64_EPSILON); [|reflexivity].
    destruct (Z.leb_spec 0 z) as [Hpos|Hneg].
    + (* the u64 column *) rewrite Z2N.id by exact Hpos. exact (conj eq_refl (conj Hex Hz)).
    + (* the i64 column *) exact (conj eq_refl (conj Hex (conj Hlow Hneg))).
Qed.

(* the routing before commit 5679380 stored 2^63 as 2^63 - 1 *)
Lemma legacy_refuted_2p63 :
  route_legacy 4890909195324358656 = RU64 9223372036854775807 /\
  route 4890909195324358656 = RF64 4890909195324358656.
Proof. vm_compute. split; reflexivity. Qed.
