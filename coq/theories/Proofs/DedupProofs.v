(* Proofs/DedupProofs.v — C15: dual-write routing is exact; split-time reads
   are exact modulo the known classes; witnesses for those classes. *)
From CS Require Import Base.Prelude Base.ListFacts Model.Dedup.
From Coq Require Import Permutation.
Open Scope Z_scope.

Lemma optZ_eqb_eq : forall a b, optZ_eqb a b = true <-> a = b.
Proof. intros [x|] [y|]; simpl; rewrite ?Z.eqb_eq; split; congruence. Qed.

Lemma optN_eqb_eq : forall a b, optN_eqb a b = true <-> a = b.
Proof. intros [x|] [y|]; simpl; rewrite ?N.eqb_eq; split; congruence. Qed.

Lemma listZ_eqb_eq : forall a b, listZ_eqb a b = true <-> a = b.
Proof.
  induction a as [|x a IH]; intros [|y b]; simpl; try (split; congruence).
  rewrite andb_true_iff, Z.eqb_eq, IH. split; [intros []; congruence | intros [= ]; auto].
Qed.

Lemma row_eqb_eq : forall a b, row_eqb a b = true <-> a = b.
Proof.
  intros [t1 m1 r1] [t2 m2 r2]. unfold row_eqb. simpl.
  rewrite !andb_true_iff, optZ_eqb_eq, optN_eqb_eq, listZ_eqb_eq.
  split; [intros [[] ]; congruence | intros [= ]; auto].
Qed.

Lemma row_eq_cases : forall a b : row, a = b \/ a <> b.
Proof. intros a b. rewrite <- row_eqb_eq. destruct (row_eqb a b); [now left | now right]. Qed.

Lemma mem_row_In : forall r l, mem_row r l = true <-> In r l.
Proof.
  induction l as [|x l IH]; simpl.
  - split; [discriminate | tauto].
  - rewrite orb_true_iff, IH, row_eqb_eq. split; intros [H|H]; auto.
Qed.

Lemma mem_row_not_In : forall r l, mem_row r l = false <-> ~ In r l.
Proof. intros r l. rewrite <- mem_row_In. symmetry. apply not_true_iff_false. Qed.

Lemma has_dup_NoDup : forall l, has_dup l = false <-> NoDup l.
Proof.
  induction l as [|x l IH]; simpl.
  - split; [constructor | reflexivity].
  - now rewrite orb_false_iff, mem_row_not_In, IH, NoDup_cons_iff.
Qed.

Lemma split_spec : forall b point sp,
  ib_ts b = TsInt64 -> split_ts point = Some sp ->
  split_batch_by_key b point =
    Done (filter (lower_side sp) (ib_rows b), filter (upper_side sp) (ib_rows b)).
Proof. intros b point sp Ht Hp. unfold split_batch_by_key. now rewrite Ht, Hp. Qed.

(* The split succeeds exactly for Int64 timestamps and an 8-byte split point. *)
Lemma split_accepts_iff : forall b point,
  (exists lo up, split_batch_by_key b point = Done (lo, up)) <->
  ib_ts b = TsInt64 /\ exists sp, split_ts point = Some sp.
Proof.
  intros b point. unfold split_batch_by_key. split.
  - intros (lo & up & H). destruct (ib_ts b); try discriminate.
    destruct (split_ts point) as [sp|]; try discriminate. split; eauto.
  - intros [Ht [sp Hp]]. rewrite Ht, Hp. eauto.
Qed.

Lemma lower_In : forall sp rows r,
  In r (filter (lower_side sp) rows) <-> In r rows /\ ts_value r < sp.
Proof. intros. rewrite filter_In. unfold lower_side. now rewrite Z.ltb_lt. Qed.

Lemma upper_In : forall sp rows r,
  In r (filter (upper_side sp) rows) <-> In r rows /\ sp <= ts_value r.
Proof.
  intros. rewrite filter_In. unfold upper_side. rewrite negb_true_iff, Z.ltb_ge. tauto.
Qed.

Lemma rows_where_app : forall p a b, rows_where p (a ++ b) = rows_where p a ++ rows_where p b.
Proof. intros. unfold rows_where. now rewrite filter_app, map_app, concat_app. Qed.

Lemma rows_where_single : forall p c, rows_where p [c] = if p c then c_rows c else [].
Proof. intros. unfold rows_where. simpl. destruct (p c); simpl; [apply app_nil_r | reflexivity]. Qed.

Lemma rows_where_In : forall p cs x,
  In x (rows_where p cs) <-> exists c, In c cs /\ p c = true /\ In x (c_rows c).
Proof.
  intros p cs x. unfold rows_where. rewrite <- flat_map_concat_map, in_flat_map.
  split; intros (c & Hc & Hx); exists c; rewrite filter_In in *; tauto.
Qed.

Lemma rows_where_none : forall p cs, Forall (fun c => p c = false) cs -> rows_where p cs = [].
Proof.
  intros p cs H. unfold rows_where. rewrite Forall_forall in H. now rewrite (filter_all_false p cs H).
Qed.

(* A chunk on the ordinary path (all a flush ever adds) counts as the old
   shard's: [new_rows] does not select it, nor does [shard_rows] for any shard. *)
Lemma ordinary_not_new : forall c, c_loc c = LOrdinary -> negb (is_old c) = false.
Proof. intros c H. unfold is_old. now rewrite H. Qed.

Lemma ordinary_in_no_shard : forall s c, c_loc c = LOrdinary -> in_shard s c = false.
Proof. intros s c H. unfold in_shard. now rewrite H. Qed.

(* flush keeps everything the old shard holds, in order, and touches no new shard *)
Lemma flush_stored : forall st, stored (flush_buffer st) = stored st.
Proof.
  intros st. unfold flush_buffer, stored, old_rows. destruct (i_buffer st) as [|b0 buf] eqn:Hb; [now rewrite Hb|].
  simpl i_chunks. simpl i_buffer. rewrite rows_where_app, rows_where_single. simpl.
  unfold buffer_rows at 2. simpl. now rewrite app_nil_r.
Qed.

Lemma flush_rows_where : forall st p, (forall c, c_loc c = LOrdinary -> p c = false) ->
  rows_where p (i_chunks (flush_buffer st)) = rows_where p (i_chunks st).
Proof.
  intros st p Hp. unfold flush_buffer. destruct (i_buffer st); [reflexivity|].
  simpl i_chunks. rewrite rows_where_app, rows_where_single, Hp by reflexivity. apply app_nil_r.
Qed.

Lemma flush_splits : forall st, i_splits (flush_buffer st) = i_splits st.
Proof. intros. unfold flush_buffer. now destruct (i_buffer st). Qed.
Lemma flush_cfg : forall st, i_flush_rows (flush_buffer st) = i_flush_rows st.
Proof. intros. unfold flush_buffer. now destruct (i_buffer st). Qed.

(* append_and_maybe_flush is: flush or not, put the batch at the end of the
   buffer, flush or not.  What a flush leaves alone is then read off in one line. *)
Definition push (st : istate) (b : ibatch) : istate :=
  mkIS (i_flush_rows st) (i_splits st) (i_buffer st ++ [b]) (i_chunks st).
Definition maybe_flush (f : bool) (st : istate) : istate := if f then flush_buffer st else st.

Lemma append_shape : forall st b, exists f1 f2,
  append_and_maybe_flush st b = maybe_flush f2 (push (maybe_flush f1 st) b).
Proof.
  intros st b. unfold append_and_maybe_flush, maybe_flush.
  destruct (i_buffer st) as [|f buf]; [|destruct (N.eqb (ib_schema f) (ib_schema b))].
  - (* empty buffer *) exists false. eexists; reflexivity.
  - (* same schema as the buffer *) exists false. eexists; reflexivity.
  - (* schema change *) exists true. eexists; reflexivity.
Qed.

Lemma push_stored : forall st b, stored (push st b) = stored st ++ ib_rows b.
Proof.
  intros st b. unfold stored, push, old_rows, buffer_rows. simpl i_buffer. simpl i_chunks.
  rewrite map_app, concat_app. simpl. now rewrite app_nil_r, app_assoc.
Qed.

(* An observation [g] of the state that a flush leaves as it is, and that
   [push] updates by [u], is updated by [u] in an append. *)
Lemma append_as_push : forall (A : Type) (g : istate -> A) (u : A -> ibatch -> A),
  (forall st, g (flush_buffer st) = g st) -> (forall st b, g (push st b) = u (g st) b) ->
  forall st b, g (append_and_maybe_flush st b) = u (g st) b.
Proof.
  intros A g u Hg Hp st b. destruct (append_shape st b) as ([|] & [|] & ->); cbn [maybe_flush];
    now rewrite ?Hg, Hp, ?Hg.
Qed.

Lemma append_stored : forall st b,
  stored (append_and_maybe_flush st b) = stored st ++ ib_rows b.
Proof. exact (append_as_push _ stored (fun rs b => rs ++ ib_rows b) flush_stored push_stored). Qed.

Lemma append_rows_where : forall st b p, (forall c, c_loc c = LOrdinary -> p c = false) ->
  rows_where p (i_chunks (append_and_maybe_flush st b)) = rows_where p (i_chunks st).
Proof.
  intros st b p Hp. apply (append_as_push _ (fun st => rows_where p (i_chunks st)) (fun rs _ => rs));
    [|reflexivity].
  intro st'. now apply flush_rows_where.
Qed.

Lemma append_new_rows : forall st b, new_rows (append_and_maybe_flush st b) = new_rows st.
Proof. intros st b. apply append_rows_where, ordinary_not_new. Qed.

Lemma append_splits : forall st b, i_splits (append_and_maybe_flush st b) = i_splits st.
Proof. exact (append_as_push _ i_splits (fun s _ => s) flush_splits (fun _ _ => eq_refl)). Qed.

Definition side_chunk (s : N) (rows : list row) : list chunk :=
  match rows with [] => [] | _ => [mkChunk (LNew s) rows] end.

Definition with_chunks (st : istate) (extra : list chunk) : istate :=
  mkIS (i_flush_rows st) (i_splits st) (i_buffer st) (i_chunks st ++ extra).

Lemma with_chunks_nil : forall st, with_chunks st [] = st.
Proof. intros [f s b c]. unfold with_chunks. simpl. now rewrite app_nil_r. Qed.

Lemma rows_where_side : forall s a rows,
  rows_where (in_shard s) (side_chunk a rows) = if N.eqb a s then rows else [].
Proof.
  intros s a rows. unfold side_chunk. destruct rows as [|r rows].
  - unfold rows_where. simpl. now destruct (N.eqb a s).
  - rewrite rows_where_single. reflexivity.
Qed.

Definition copy_of (src : list row) (c : chunk) : Prop :=
  is_old c = false /\ incl (c_rows c) src.

(* [st'] is [st] with further chunks registered, each a copy of rows of [src];
   the buffer is the same (the split table need not be).  Both the direct
   writes of the dual-write path and the back-fill act on a state like this. *)
Definition adds_copies (src : list row) (st st' : istate) : Prop :=
  i_buffer st' = i_buffer st /\
  exists cs, i_chunks st' = i_chunks st ++ cs /\ Forall (copy_of src) cs.

Lemma adds_none : forall src st st',
  i_buffer st' = i_buffer st -> i_chunks st' = i_chunks st -> adds_copies src st st'.
Proof. intros src st st' Hb Hc. split; [exact Hb|]. exists []. now rewrite app_nil_r. Qed.

Lemma adds_refl : forall src st, adds_copies src st st.
Proof. intros. now apply adds_none. Qed.

Lemma adds_with_chunks : forall src st cs,
  Forall (copy_of src) cs -> adds_copies src st (with_chunks st cs).
Proof. intros src st cs H. split; [reflexivity|]. now exists cs. Qed.

Lemma adds_trans : forall src a b c,
  adds_copies src a b -> adds_copies src b c -> adds_copies src a c.
Proof.
  unfold adds_copies. intros src a b c (Hb1 & c1 & E1 & F1) (Hb2 & c2 & E2 & F2). split; [congruence|].
  exists (c1 ++ c2). rewrite E2, E1, app_assoc. split; [reflexivity | now apply Forall_app].
Qed.

Lemma adds_incl : forall src src' a b,
  incl src src' -> adds_copies src a b -> adds_copies src' a b.
Proof.
  unfold adds_copies. intros src src' a b Hi (Hb & cs & E & F). split; [exact Hb|]. exists cs. split; [exact E|].
  eapply Forall_impl; [|exact F]. intros c [Ho Hc]. split; [exact Ho | eapply incl_tran; eauto].
Qed.

Lemma adds_stored : forall src st st', adds_copies src st st' -> stored st' = stored st.
Proof.
  unfold adds_copies. intros src st st' (Hb & cs & E & F). unfold stored, old_rows.
  rewrite Hb, E, rows_where_app, (rows_where_none is_old cs), app_nil_r; [reflexivity|].
  eapply Forall_impl; [|exact F]. now intros c [Ho _].
Qed.

Lemma adds_new_rows : forall src st st' x, adds_copies src st st' ->
  In x (new_rows st') -> In x (new_rows st) \/ In x src.
Proof.
  unfold adds_copies. intros src st st' x (_ & cs & E & F). unfold new_rows.
  rewrite E, rows_where_app, in_app_iff, (rows_where_In _ cs).
  intros [H|(c & Hc & _ & Hx)]; [now left | right].
  rewrite Forall_forall in F. now apply (F c Hc).
Qed.

Lemma write_side_ok : forall st news k s rows, nth_error news k = Some s ->
  write_side st news k rows = (with_chunks st (side_chunk s rows), Done tt).
Proof.
  intros st news k s rows Hn. unfold write_side, side_chunk.
  destruct rows as [|r rows]; [now rewrite with_chunks_nil|]. now rewrite Hn.
Qed.

Lemma write_side_adds : forall src st news k rows, incl rows src ->
  adds_copies src st (fst (write_side st news k rows)).
Proof.
  intros src st news k rows Hi. unfold write_side. destruct rows as [|r rows]; [apply adds_refl|].
  destruct (nth_error news k) as [s|]; [|apply adds_refl].
  apply (adds_with_chunks src st [mkChunk (LNew s) (r :: rows)]).
  constructor; [split; [reflexivity | exact Hi] | constructor].
Qed.

(* whatever becomes of a write — accepted, rejected by the split, or panicking
   between the two sides — the state is the appended one plus copies of rows
   of the batch *)
Lemma write_adds : forall st sid b,
  adds_copies (ib_rows b) (append_and_maybe_flush st b) (fst (write st sid b)).
Proof.
  intros st sid b. unfold write.
  destruct (aget N.eqb sid (i_splits st)) as [ss|]; [|apply adds_refl].
  destruct (is_dual (ss_phase ss)); [|apply adds_refl].
  unfold write_with_split_awareness, split_batch_by_key.
  destruct (ib_ts b); try apply adds_refl.
  destruct (split_ts (ss_point ss)) as [sp|]; [|apply adds_refl].
  pose proof (write_side_adds (ib_rows b) (append_and_maybe_flush st b) (ss_new ss) 0 _
                (incl_filter (lower_side sp) _)) as H1.
  destruct (write_side (append_and_maybe_flush st b) (ss_new ss) 0 _) as [st2 [[]| | |]]; try exact H1.
  exact (adds_trans _ _ _ _ H1 (write_side_adds _ _ _ 1 _ (incl_filter _ _))).
Qed.

Lemma write_stored : forall st sid b, stored (fst (write st sid b)) = stored st ++ ib_rows b.
Proof. intros st sid b. rewrite (adds_stored _ _ _ (write_adds st sid b)). apply append_stored. Qed.

(* a split state under which dual-write cannot fail *)
Definition valid_split (ss : split_state) (sp : Z) (a0 a1 : N) : Prop :=
  is_dual (ss_phase ss) = true /\ split_ts (ss_point ss) = Some sp /\
  nth_error (ss_new ss) 0 = Some a0 /\ nth_error (ss_new ss) 1 = Some a1.

Lemma write_dual : forall st sid ss b sp a0 a1,
  aget N.eqb sid (i_splits st) = Some ss -> valid_split ss sp a0 a1 -> ib_ts b = TsInt64 ->
  write st sid b =
    (with_chunks (append_and_maybe_flush st b)
       (side_chunk a0 (filter (lower_side sp) (ib_rows b)) ++ side_chunk a1 (filter (upper_side sp) (ib_rows b))),
     Done tt).
Proof.
  intros st sid ss b sp a0 a1 Hget (Hdual & Hsp & Hn0 & Hn1) Hts.
  unfold write. rewrite Hget, Hdual. unfold write_with_split_awareness.
  rewrite (split_spec b (ss_point ss) sp Hts Hsp).
  rewrite (write_side_ok _ _ 0 _ _ Hn0). rewrite (write_side_ok _ _ 1 _ _ Hn1).
  unfold with_chunks. simpl. now rewrite app_assoc.
Qed.

Lemma sides_partition : forall sp rows,
  let lo := filter (lower_side sp) rows in
  let up := filter (upper_side sp) rows in
  Permutation (lo ++ up) rows /\
  (forall r, In r lo <-> In r rows /\ ts_value r < sp) /\
  (forall r, In r up <-> In r rows /\ sp <= ts_value r) /\
  (forall r, In r rows -> (In r lo /\ ~ In r up) \/ (In r up /\ ~ In r lo)).
Proof.
  intros sp rows lo up.
  split; [apply Permutation_sym, (perm_filter_split (lower_side sp))|].
  split; [intro r; apply lower_In|]. split; [intro r; apply upper_In|].
  intros r Hr. unfold lo, up. rewrite lower_In, upper_In.
  destruct (Z.lt_ge_cases (ts_value r) sp); [left | right]; (split; [tauto | lia]).
Qed.

(* routing_exact: in the dual-write and back-fill phases an Int64 batch is
   accepted; the old shard receives the whole batch; exactly one chunk per
   non-empty side is registered, the lower rows (ts < split point) under the
   first new shard, the upper rows (ts >= split point, boundary included)
   under the second; the two sides partition the batch. *)
Theorem routing_exact : forall st sid ss b sp a0 a1,
  aget N.eqb sid (i_splits st) = Some ss -> valid_split ss sp a0 a1 -> ib_ts b = TsInt64 ->
  let st1 := append_and_maybe_flush st b in
  let lo := filter (lower_side sp) (ib_rows b) in
  let up := filter (upper_side sp) (ib_rows b) in
  write st sid b = (with_chunks st1 (side_chunk a0 lo ++ side_chunk a1 up), Done tt) /\
  stored st1 = stored st ++ ib_rows b /\
  new_rows st1 = new_rows st /\
  Permutation (lo ++ up) (ib_rows b) /\
  (forall r, In r lo <-> In r (ib_rows b) /\ ts_value r < sp) /\
  (forall r, In r up <-> In r (ib_rows b) /\ sp <= ts_value r) /\
  (forall r, In r (ib_rows b) -> (In r lo /\ ~ In r up) \/ (In r up /\ ~ In r lo)).
Proof.
  intros st sid ss b sp a0 a1 Hget Hv Hts st1 lo up.
  split; [exact (write_dual st sid ss b sp a0 a1 Hget Hv Hts)|].
  split; [apply append_stored|]. split; [apply append_new_rows|]. apply sides_partition.
Qed.

Theorem routing_exact_shards : forall st sid ss b sp a0 a1,
  aget N.eqb sid (i_splits st) = Some ss -> valid_split ss sp a0 a1 -> ib_ts b = TsInt64 -> a0 <> a1 ->
  let st' := fst (write st sid b) in
  snd (write st sid b) = Done tt /\
  shard_rows st' a0 = shard_rows st a0 ++ filter (lower_side sp) (ib_rows b) /\
  shard_rows st' a1 = shard_rows st a1 ++ filter (upper_side sp) (ib_rows b) /\
  (forall s, s <> a0 -> s <> a1 -> shard_rows st' s = shard_rows st s) /\
  stored st' = stored st ++ ib_rows b.
Proof.
  intros st sid ss b sp a0 a1 Hget Hv Hts Hne st'.
  pose proof (write_dual st sid ss b sp a0 a1 Hget Hv Hts) as Hw.
  assert (Hsh : forall s, shard_rows st' s = shard_rows st s
            ++ (if N.eqb a0 s then filter (lower_side sp) (ib_rows b) else [])
            ++ (if N.eqb a1 s then filter (upper_side sp) (ib_rows b) else [])).
  { intro s. unfold st'. rewrite Hw. unfold shard_rows, with_chunks. simpl.
    now rewrite !rows_where_app, !rows_where_side, (append_rows_where st b _ (ordinary_in_no_shard s)). }
  split; [now rewrite Hw|]. split; [|split; [|split]].
  - rewrite Hsh, N.eqb_refl, (proj2 (N.eqb_neq a1 a0)) by congruence. now rewrite app_nil_r.
  - now rewrite Hsh, N.eqb_refl, (proj2 (N.eqb_neq a0 a1)).
  - intros s H0 H1. rewrite Hsh, (proj2 (N.eqb_neq a0 s)), (proj2 (N.eqb_neq a1 s)) by congruence.
    now rewrite !app_nil_r.
  - apply write_stored.
Qed.

(* outside the two phases (or without a split state) a write goes to the old
   shard only *)
Lemma write_single : forall st sid b,
  (forall ss, aget N.eqb sid (i_splits st) = Some ss -> is_dual (ss_phase ss) = false) ->
  write st sid b = (append_and_maybe_flush st b, Done tt).
Proof.
  intros st sid b H. unfold write. destruct (aget N.eqb sid (i_splits st)) as [ss|]; [|reflexivity].
  now rewrite (H ss eq_refl).
Qed.

(* Whatever holds of every chunk under a new shard that keeps a part of a
   historical chunk holds of every back-fill copy: the outcome of the walk
   (all sides written, or a panic part-way) only decides how many there are. *)
Lemma backfill_chunks_ind : forall (Q : chunk -> Prop) sp news hist,
  (forall s h f, In h hist -> Q (mkChunk (LNew s) (filter f (c_rows h)))) ->
  Forall Q (fst (backfill_chunks sp news hist)).
Proof.
  intros Q sp news hist. induction hist as [|h hist IH]; intro HQ; [constructor|].
  destruct sp as [p|]; [|constructor].
  specialize (IH (fun s h' f Hh => HQ s h' f (or_intror Hh))).
  cbn [backfill_chunks].
  generalize (fun s => HQ s h (lower_side p) (or_introl eq_refl))
             (fun s => HQ s h (upper_side p) (or_introl eq_refl)).
  generalize (filter (lower_side p) (c_rows h)) (filter (upper_side p) (c_rows h)).
  intros lo up Hlo Hup.
  destruct (backfill_chunks (Some p) news hist) as [more o]. cbn [fst] in IH.
  (* The result is [[]] (panic on the lower side), the lower copy alone (panic
     on the upper side) or lower copy ++ upper copy ++ [more]; a side without
     rows has no copy. *)
  destruct lo as [|r lo], (nth_error news 0) as [s0|], up as [|r' up], (nth_error news 1) as [s1|];
    cbn [fst app];
    repeat first [exact IH | apply Forall_nil | apply Forall_cons; [apply Hlo || apply Hup|]].
Qed.

Lemma backfill_chunks_spec : forall sp news hist c,
  In c (fst (backfill_chunks sp news hist)) ->
  is_old c = false /\ exists h, In h hist /\ incl (c_rows c) (c_rows h).
Proof.
  intros sp news hist. apply Forall_forall, backfill_chunks_ind. intros s h f Hh.
  split; [reflexivity|]. exists h. split; [exact Hh | apply incl_filter].
Qed.

Lemma update_progress_chunks_buffer : forall st sid p,
  i_chunks (update_split_progress st sid p) = i_chunks st /\
  i_buffer (update_split_progress st sid p) = i_buffer st.
Proof.
  intros st sid p. unfold update_split_progress. destruct (aget N.eqb sid (i_splits st)); split; reflexivity.
Qed.

Lemma run_backfill_adds : forall st sid,
  adds_copies (old_rows st) st (fst (run_backfill st sid)).
Proof.
  intros st sid. unfold run_backfill.
  destruct (aget N.eqb sid (i_splits st)) as [ss|]; [|apply adds_refl].
  pose proof (backfill_chunks_ind (copy_of (old_rows st)) (split_ts (ss_point ss)) (ss_new ss)
                (filter (is_hist sid) (i_chunks st))) as Hcs.
  destruct (backfill_chunks _ _ _) as [cs o].
  apply (adds_trans _ _ (update_split_progress st sid PBackfill));
    [apply adds_none; apply update_progress_chunks_buffer | apply (adds_with_chunks _ _ cs)].
  apply Hcs. intros s h f Hh. apply filter_In in Hh. destruct Hh as [Hh Hist].
  split; [reflexivity|]. intros x Hx. apply filter_In in Hx.
  apply rows_where_In. exists h. split; [exact Hh|]. split; [|apply Hx].
  unfold is_hist in Hist. unfold is_old. now destruct (c_loc h).
Qed.

(* One step of a history, as the shards see it: first the old shard takes the
   rows the operation brings (in [st1]; a change of the split table alone
   leaves [st1 = st]), then copies of rows the old shard holds by then are
   registered under new shards. *)
Lemma hstep_adds : forall st o, exists st1,
  Permutation (stored st1) (stored st ++ op_rows o) /\ new_rows st1 = new_rows st /\
  adds_copies (stored st1) st1 (fst (hstep st o)).
Proof.
  assert (no_rows : forall st st', adds_copies (stored st) st st' -> exists st1,
            Permutation (stored st1) (stored st ++ []) /\ new_rows st1 = new_rows st /\
            adds_copies (stored st1) st1 st').
  { intros st st' H. exists st. rewrite app_nil_r. split; [reflexivity|]. split; [reflexivity | exact H]. }
  intros st o. destruct o as [sid news point|sid p|sid|sid b| |sid rows|sid]; cbn [hstep fst op_rows].
  - (* HStart *) apply no_rows. now apply adds_none.
  - (* HProgress *) apply no_rows, adds_none; apply update_progress_chunks_buffer.
  - (* HComplete *) apply no_rows. now apply adds_none.
  - (* HWrite *) exists (append_and_maybe_flush st b). rewrite append_stored.
    split; [reflexivity|]. split; [apply append_new_rows|].
    eapply adds_incl; [|apply write_adds]. apply incl_appr, incl_refl.
  - (* HFlush *) exists (flush_buffer st). rewrite flush_stored, app_nil_r.
    split; [reflexivity|]. split; [apply (flush_rows_where _ _ ordinary_not_new) | apply adds_refl].
  - (* HHist *) exists (add_hist st sid rows). unfold stored, old_rows, new_rows, add_hist. cbn [i_chunks i_buffer].
    rewrite !rows_where_app, !rows_where_single. cbn [is_old c_loc negb c_rows]. rewrite app_nil_r.
    split; [|split; [reflexivity | apply adds_refl]].
    rewrite <- !app_assoc. apply Permutation_app_head, Permutation_app_comm.
  - (* HBackfill *) apply no_rows. eapply adds_incl; [|apply run_backfill_adds]. apply incl_appl, incl_refl.
Qed.

(* the old shard holds exactly what was written or pre-existed, each row once
   (flushed and historical chunks, then the buffer) — whatever the split phases *)
Theorem stored_is_written : forall h st, Permutation (stored (hrun st h)) (stored st ++ written_rows h).
Proof.
  induction h as [|o h IH]; intro st.
  - unfold written_rows. simpl. now rewrite app_nil_r.
  - change (Permutation (stored (hrun (fst (hstep st o)) h)) (stored st ++ op_rows o ++ written_rows h)).
    destruct (hstep_adds st o) as (st1 & Hs & _ & Ha).
    now rewrite IH, (adds_stored _ _ _ Ha), Hs, app_assoc.
Qed.

(* every row under a new shard was there at the start or is a copy of a row the
   old shard holds *)
Theorem new_rows_are_copies : forall h st x,
  In x (new_rows (hrun st h)) -> In x (new_rows st) \/ In x (stored (hrun st h)).
Proof.
  induction h as [|o h IH]; intros st x; [simpl; auto|].
  change (hrun st (o :: h)) with (hrun (fst (hstep st o)) h). intro Hx.
  apply IH in Hx. destruct Hx as [Hx|Hx]; [|auto].
  destruct (hstep_adds st o) as (st1 & _ & Hn & Ha).
  apply (adds_new_rows _ _ _ _ Ha) in Hx. rewrite Hn, <- (adds_stored _ _ _ Ha) in Hx.
  destruct Hx as [Hx|Hx]; [auto | right].
  apply (Permutation_in _ (Permutation_sym (stored_is_written h _))), in_or_app. now left.
Qed.

Definition nonnull (r : row) : Prop := r_ts r <> None.

(* the case analysis of dedup_rows (no timestamp / seen before / new), made
   once.  Applied after [intros rows seen], so that unification can read the
   predicate off the goal. *)
Lemma dedup_rows_ind : forall P : list row -> list row -> list row * list row * bool -> Prop,
  (forall seen, P seen [] (seen, [], false)) ->
  (forall seen r rest s k d, r_ts r = None ->
     P seen rest (s, k, d) -> P seen (r :: rest) (s, r :: k, d)) ->
  (forall seen r rest s k d t, r_ts r = Some t -> mem_row r seen = true ->
     P seen rest (s, k, d) -> P seen (r :: rest) (s, k, true)) ->
  (forall seen r rest s k d t, r_ts r = Some t -> mem_row r seen = false ->
     P (r :: seen) rest (s, k, d) -> P seen (r :: rest) (s, r :: k, d)) ->
  forall rows seen, P seen rows (dedup_rows seen rows).
Proof.
  intros P Hnil Hnull Hdup Hnew. induction rows as [|r rows IH]; intro seen; simpl; [apply Hnil|].
  destruct (r_ts r) as [t|] eqn:Ht; [destruct (mem_row r seen) eqn:Hm|].
  - specialize (IH seen). destruct (dedup_rows seen rows) as [[s k] d]. exact (Hdup _ _ _ _ _ d t Ht Hm IH).
  - specialize (IH (r :: seen)). destruct (dedup_rows (r :: seen) rows) as [[s k] d]. exact (Hnew _ _ _ _ _ _ t Ht Hm IH).
  - specialize (IH seen). destruct (dedup_rows seen rows) as [[s k] d]. exact (Hnull _ _ _ _ _ _ Ht IH).
Qed.

Lemma dedup_rows_app : forall l1 seen l2,
  dedup_rows seen (l1 ++ l2) =
  let '(s1, k1, d1) := dedup_rows seen l1 in
  let '(s2, k2, d2) := dedup_rows s1 l2 in (s2, k1 ++ k2, d1 || d2).
Proof.
  intros l1 seen. apply dedup_rows_ind; clear; simpl.
  - (* end *) intros seen l2. now destruct (dedup_rows seen l2) as [[s2 k2] d2].
  - (* no timestamp *) intros seen r rest s k d Ht IH l2. rewrite Ht, IH.
    now destruct (dedup_rows s l2) as [[s2 k2] d2].
  - (* seen before *) intros seen r rest s k d t Ht Hm IH l2. rewrite Ht, Hm, IH.
    now destruct (dedup_rows s l2) as [[s2 k2] d2].
  - (* new *) intros seen r rest s k d t Ht Hm IH l2. rewrite Ht, Hm, IH.
    now destruct (dedup_rows s l2) as [[s2 k2] d2].
Qed.

Lemma dedup_rows_nodrop : forall rows seen,
  snd (dedup_rows seen rows) = false -> snd (fst (dedup_rows seen rows)) = rows.
Proof.
  intros rows seen. apply dedup_rows_ind; clear; simpl.
  - (* end *) reflexivity.
  - (* no timestamp *) intros seen r rest s k d _ IH Hd. now rewrite (IH Hd).
  - (* seen before *) discriminate.
  - (* new *) intros seen r rest s k d t _ _ IH Hd. now rewrite (IH Hd).
Qed.

(* what is kept: the rows without a timestamp, and the first occurrence of
   every other row not seen before — pairwise distinct when all rows have a
   timestamp *)
Lemma dedup_rows_spec : forall rows seen,
  (forall x, In x (snd (fst (dedup_rows seen rows))) <->
             In x rows /\ (nonnull x -> ~ In x seen)) /\
  (Forall nonnull rows -> NoDup (snd (fst (dedup_rows seen rows)))).
Proof.
  intros rows seen. apply dedup_rows_ind; clear; cbn [fst snd].
  - (* end *) intro seen. split; [intro x; split; [intros [] | intros [[] _]] | constructor].
  - (* no timestamp *) intros seen r rest s k d Ht [Hk _]. split.
    + intro x. simpl. rewrite Hk. split; [|intros [[Hx|Hx] Hq]; auto].
      intros [<-|[Hx Hq]]; [split; [now left | intro Hp; now elim Hp] | auto].
    + intro Hnn. now elim (Forall_inv Hnn).
  - (* seen before *) intros seen r rest s k d t Ht Hm [Hk Hnd]. apply mem_row_In in Hm. split.
    + intro x. simpl. rewrite Hk. split; [intros [Hx Hq]; auto|].
      intros [[<-|Hx] Hq]; [|auto]. elim Hq; [unfold nonnull; congruence | exact Hm].
    + intro Hnn. exact (Hnd (Forall_inv_tail Hnn)).
  - (* new *) intros seen r rest s k d t Ht Hm [Hk Hnd]. apply mem_row_not_In in Hm. split.
    + intro x. simpl. rewrite Hk. simpl. split.
      * intros [<-|[Hx Hq]]; [now split; [left|] | split; [now right|]].
        intros Hp Hi. apply (Hq Hp). now right.
      * intros [[<-|Hx] Hq]; [now left|]. destruct (row_eq_cases r x) as [->|Hne]; [now left | right].
        split; [exact Hx|]. intros Hp [E|Hi]; [exact (Hne E) | exact (Hq Hp Hi)].
    + intro Hnn. constructor; [|exact (Hnd (Forall_inv_tail Hnn))].
      intro Hr. apply Hk in Hr. apply (proj2 Hr); [unfold nonnull; congruence | now left].
Qed.

Lemma dedup_rows_incl : forall rows seen x,
  In x (snd (fst (dedup_rows seen rows))) -> In x rows.
Proof. intros rows seen x Hx. now apply dedup_rows_spec in Hx. Qed.

Lemma dedup_rows_null_kept : forall rows seen x,
  In x rows -> r_ts x = None -> In x (snd (fst (dedup_rows seen rows))).
Proof. intros rows seen x Hx Hn. apply dedup_rows_spec. split; [exact Hx | intro Hp; now elim Hp]. Qed.

Lemma dedup_passthrough : forall seen b bs, keyed b = false ->
  dedup_batches_aux seen (b :: bs) = b :: dedup_batches_aux seen bs.
Proof. intros seen b bs H. simpl. now rewrite H. Qed.

Lemma result_rows_cons : forall b bs, result_rows (b :: bs) = b_rows b ++ result_rows bs.
Proof. reflexivity. Qed.

(* one step of dedup_batches_aux as the rows see it: a batch with both gating
   columns contributes its kept rows, whether it is passed on whole, rebuilt or
   omitted *)
Lemma dedup_batches_cons : forall seen b bs,
  result_rows (dedup_batches_aux seen (b :: bs)) =
  if keyed b
  then let '(s, k, _) := dedup_rows seen (b_rows b) in k ++ result_rows (dedup_batches_aux s bs)
  else b_rows b ++ result_rows (dedup_batches_aux seen bs).
Proof.
  intros seen b bs. simpl. destruct (keyed b); [|reflexivity].
  pose proof (dedup_rows_nodrop (b_rows b) seen) as Hnd.
  destruct (dedup_rows seen (b_rows b)) as [[s k] [|]]; [now destruct k|].
  rewrite result_rows_cons. simpl in *. now rewrite Hnd.
Qed.

(* across batches the de-duplication is the one of the concatenated rows *)
Lemma dedup_batches_rows : forall bs seen, forallb keyed bs = true ->
  result_rows (dedup_batches_aux seen bs) = snd (fst (dedup_rows seen (result_rows bs))).
Proof.
  induction bs as [|b bs IH]; intros seen Hk; [reflexivity|].
  simpl in Hk. apply andb_true_iff in Hk. destruct Hk as [Hb Hbs].
  rewrite dedup_batches_cons, Hb, result_rows_cons, dedup_rows_app.
  destruct (dedup_rows seen (b_rows b)) as [[s1 k1] d1]. rewrite (IH s1 Hbs).
  now destruct (dedup_rows s1 (result_rows bs)) as [[s2 k2] d2].
Qed.

Lemma dedup_batches_incl : forall bs seen x,
  In x (result_rows (dedup_batches_aux seen bs)) -> In x (result_rows bs).
Proof.
  induction bs as [|b bs IH]; intros seen; [simpl; auto|].
  rewrite dedup_batches_cons, result_rows_cons.
  pose proof (dedup_rows_incl (b_rows b) seen) as Hi.
  destruct (keyed b); [destruct (dedup_rows seen (b_rows b)) as [[s k] d]|]; apply incl_app_app.
  - (* the kept rows of [b] *) exact Hi.
  - exact (IH s).
  - (* [b] passed on whole *) apply incl_refl.
  - exact (IH seen).
Qed.

Definition same_set (a b : list row) : Prop := forall x, In x a <-> In x b.

Lemma run_query_dedup : forall q chunks,
  run_query true q chunks = dedup_batches (run_query false q chunks).
Proof. reflexivity. Qed.

(* a raw select without de-duplication: the engine's filter and projection
   over all scanned rows, however they are batched *)
Lemma raw_query_rows : forall w kt km kr (chunks : list (list row)),
  result_rows (run_query false (mkQuery w (PRaw kt km kr)) chunks)
  = map (proj_row kt km kr) (filter (where_row w) (concat chunks)).
Proof.
  intros. unfold run_query, result_rows. cbn [q_post q_where post_apply].
  rewrite map_map. cbn [b_rows]. now rewrite <- concat_map, concat_filter_map.
Qed.

Lemma raw_query_keyed : forall w kr (chunks : list (list row)),
  forallb keyed (run_query false (mkQuery w (PRaw true true kr)) chunks) = true.
Proof.
  intros. unfold run_query. cbn [q_post q_where post_apply]. rewrite forallb_forall.
  intros b Hb. apply in_map_iff in Hb. now destruct Hb as (rows & <- & _).
Qed.

Lemma proj_where_nonnull : forall w kr l,
  Forall nonnull (map (proj_row true true kr) (filter (where_row w) l)).
Proof.
  intros w kr l. apply Forall_map, Forall_forall. intros r Hr. apply filter_In in Hr.
  destruct Hr as [_ Hw]. unfold where_row in Hw. unfold nonnull. simpl. now destruct (r_ts r).
Qed.

Lemma same_set_map_filter : forall (f : row -> row) p a b,
  same_set a b -> same_set (map f (filter p a)) (map f (filter p b)).
Proof.
  unfold same_set. intros f p a b H x. rewrite !in_map_iff. setoid_rewrite filter_In.
  now setoid_rewrite H.
Qed.

(* A raw select carrying timestamp and metric_name, during a split: whatever
   copies the scan holds and however it is ordered and batched, the answer has
   no repetition and holds exactly the rows of the answer over the ingested
   rows alone. *)
Theorem raw_dedup : forall (ing : list row) (scanned : list (list row)) w kr,
  same_set ing (concat scanned) ->
  let res := result_rows (run_query true (mkQuery w (PRaw true true kr)) scanned) in
  NoDup res /\ same_set res (map (proj_row true true kr) (filter (where_row w) ing)).
Proof.
  intros ing scanned w kr Hset. rewrite run_query_dedup. unfold dedup_batches.
  rewrite dedup_batches_rows, raw_query_rows by apply raw_query_keyed.
  split; [apply dedup_rows_spec, proj_where_nonnull|]. intro x.
  rewrite (proj1 (dedup_rows_spec _ _)), (same_set_map_filter _ _ _ _ Hset x).
  split; [now intros [Hx _] | now split].
Qed.

(* C15_modulo_known: outside the known classes — i.e. a raw select carrying
   timestamp and metric_name whose selected rows are pairwise distinct — the
   answer during a split is, as a multiset, the answer over the ingested rows
   alone, whatever copies the new shards hold and however the scan is ordered
   and batched. *)
Theorem modulo_known : forall (ing : list row) (scanned : list (list row)) (q : query),
  same_set ing (concat scanned) ->
  known_class ing q = KNone ->
  Permutation (result_rows (run_query true q scanned)) (result_rows (run_query false q [ing])).
Proof.
  intros ing scanned [w p] Hset Hk. unfold known_class in Hk.
  destruct p as [[|] [|] kr| | | |]; try discriminate. simpl in Hk.
  destruct (has_dup (map (proj_row true true kr) (filter (where_row w) ing))) eqn:Hd; [discriminate|].
  apply has_dup_NoDup in Hd. rewrite (raw_query_rows w true true kr [ing]). simpl concat. rewrite app_nil_r.
  destruct (raw_dedup ing scanned w kr Hset) as [Hnd Hin]. now apply NoDup_Permutation.
Qed.

(* The repaired class: rows that share timestamp and metric name but differ in
   a label or value are all kept — SELECT * over pairwise distinct rows is exact. *)
Corollary series_all_kept : forall ing scanned w,
  same_set ing (concat scanned) -> NoDup (filter (where_row w) ing) ->
  Permutation (result_rows (run_query true (mkQuery w (PRaw true true true)) scanned))
              (filter (where_row w) ing).
Proof.
  intros ing scanned w Hset Hnd. destruct (raw_dedup ing scanned w true Hset) as [Hnd' Hin].
  rewrite (map_ext _ id), map_id in Hin; [now apply NoDup_Permutation | now intros []].
Qed.

Lemma no_split_no_dedup : forall st q, has_active_split st = false ->
  query_state st q = run_query false q (scan st).
Proof. intros st q H. unfold query_state. now rewrite H. Qed.

Lemma scan_In : forall p cs x,
  In x (concat (map c_rows cs)) <->
  In x (rows_where p cs) \/ In x (rows_where (fun c => negb (p c)) cs).
Proof.
  intros p cs x. rewrite !rows_where_In, <- flat_map_concat_map, in_flat_map. split.
  - intros (c & Hc & Hx). destruct (p c) eqn:Hp; [left | right]; exists c; now rewrite Hp.
  - intros [(c & Hc & _ & Hx)|(c & Hc & _ & Hx)]; eauto.
Qed.

(* Reads along a history that starts in any state whose new shards hold only
   copies of what its old shard holds; [ing] is what that state stored plus
   what the history brings. *)
Theorem history_modulo_known_from : forall (st0 : istate) (h : list hop) (q : query),
  let st := hrun st0 h in
  let ing := stored st0 ++ written_rows h in
  incl (new_rows st0) (stored st0) ->
  i_buffer st = [] -> has_active_split st = true -> known_class ing q = KNone ->
  Permutation (old_rows st) ing /\
  Permutation (result_rows (query_state st q)) (result_rows (run_query false q [ing])).
Proof.
  intros st0 h q st ing Hnew Hbuf Hact Hk.
  assert (Hst : stored st = old_rows st) by (unfold stored; rewrite Hbuf; apply app_nil_r).
  pose proof (stored_is_written h st0) as Hold. fold st ing in Hold. rewrite Hst in Hold.
  split; [exact Hold|].
  unfold query_state. rewrite Hact. apply modulo_known; [|exact Hk].
  intro x. unfold scan. rewrite (scan_In is_old). fold (old_rows st). fold (new_rows st). rewrite <- Hold.
  split; [auto|]. intros [Hx|Hx]; [exact Hx|].
  apply (new_rows_are_copies h st0) in Hx. fold st in Hx. rewrite Hst in Hx.
  destruct Hx as [Hx|Hx]; [|exact Hx]. rewrite Hold. apply in_or_app. left. now apply Hnew.
Qed.

(* From the empty state: with every buffered row flushed, while some shard is
   in DualWrite/Backfill, a query outside the known classes returns exactly
   what the same query returns over the old shard's data alone (= everything
   written or pre-existing, each row once), for every history of split-state
   changes, writes, flushes, historical chunks and back-fill runs. *)
Theorem history_modulo_known : forall (flush_rows : N) (h : list hop) (q : query),
  let st := hrun (init_state flush_rows) h in
  i_buffer st = [] -> has_active_split st = true ->
  known_class (written_rows h) q = KNone ->
  Permutation (old_rows st) (written_rows h) /\
  Permutation (result_rows (query_state st q)) (result_rows (run_query false q [written_rows h])).
Proof. intros fr h q. apply (history_modulo_known_from (init_state fr)). intros x []. Qed.

Definition sp100 : list N := [0; 0; 0; 0; 0; 0; 0; 100]%N.
Definition rw (t : Z) (m : N) (host v : Z) : row := mkRow (Some t) (Some m) [host; v].

(* one shard (id 1) in DualWrite with split point 100, new shards 11 and 12;
   the witnesses run it from [init_state 1], which flushes after every write *)
Definition wit_prefix : list hop :=
  [HStart 1 [11; 12]%N sp100; HProgress 1 PDual].
Definition q_all (p : post) : query := mkQuery (mkWhere 0 1000 None) p.

(* two series of one metric at one timestamp, a row at and one above the split point *)
Definition wit_series : list hop :=
  wit_prefix ++ [HWrite 1 (mkIBatch 1 TsInt64 [rw 50 7 1 10; rw 50 7 2 20; rw 100 7 1 30; rw 150 7 1 40])].

(* routing of the witness batch: 50,50 below; 100 (the boundary) and 150 above *)
Example routing_witness :
  let st := hrun (init_state 1) wit_series in
  shard_rows st 11 = [rw 50 7 1 10; rw 50 7 2 20] /\
  shard_rows st 12 = [rw 100 7 1 30; rw 150 7 1 40] /\
  old_rows st = [rw 50 7 1 10; rw 50 7 2 20; rw 100 7 1 30; rw 150 7 1 40].
Proof. vm_compute. repeat split. Qed.

(* non-vacuity of routing_exact / routing_exact_shards *)
Example routing_exact_nonvacuous :
  exists st sid ss b sp a0 a1,
    aget N.eqb sid (i_splits st) = Some ss /\ valid_split ss sp a0 a1 /\ ib_ts b = TsInt64 /\ a0 <> a1 /\
    ib_rows b <> [].
Proof.
  exists (hrun (init_state 1) wit_prefix), 1%N, (mkSS PDual [11; 12]%N sp100),
         (mkIBatch 1 TsInt64 [rw 50 7 1 10; rw 100 7 1 30]), 100, 11%N, 12%N.
  repeat split; try reflexivity; discriminate.
Qed.

(* the repaired class, before the repair: the (timestamp, metric) key dropped
   the second series; the repaired routine keeps all four rows *)
Theorem series_collapse_repaired :
  let st := hrun (init_state 1) wit_series in
  let scanned := concat (scan st) in
  length (legacy_dedup_rows [] scanned) = 3%nat /\
  ~ In (rw 50 7 2 20) (legacy_dedup_rows [] scanned) /\
  Permutation (result_rows (query_state st (q_all (PRaw true true true)))) (written_rows wit_series) /\
  known_class (written_rows wit_series) (q_all (PRaw true true true)) = KNone.
Proof.
  split; [vm_compute; reflexivity|]. split; [|split].
  - vm_compute. intros [H|[H|[H|[]]]]; discriminate.
  - vm_compute. apply Permutation_refl.
  - vm_compute. reflexivity.
Qed.

(* COUNT( * ) is computed over old + new copies: 8 instead of 4 *)
Theorem refuted_aggregate_inflated :
  exists (h : list hop) (q : query),
    let st := hrun (init_state 1) h in
    i_buffer st = [] /\ has_active_split st = true /\
    known_class (written_rows h) q = KAggregate /\
    result_rows (query_state st q) = [mkRow None None [8]] /\
    result_rows (run_query false q [written_rows h]) = [mkRow None None [4]] /\
    ~ Permutation (result_rows (query_state st q)) (result_rows (run_query false q [written_rows h])).
Proof.
  exists wit_series, (q_all PCount). cbv zeta.
  repeat (split; [vm_compute; reflexivity|]).
  intro H. apply Permutation_length_1 in H. revert H. vm_compute. discriminate.
Qed.

(* SUM and GROUP BY likewise (the grouped result even carries both gating
   columns, but its rows are distinct groups whose counts are already doubled) *)
Example aggregate_inflated_sum_group :
  let st := hrun (init_state 1) wit_series in
  result_rows (query_state st (q_all (PSum 1))) = [mkRow None None [200]] /\
  result_rows (run_query false (q_all (PSum 1)) [written_rows wit_series]) = [mkRow None None [100]] /\
  result_rows (query_state st (q_all PCountByKey)) =
    [mkRow (Some 50) (Some 7%N) [4]; mkRow (Some 100) (Some 7%N) [2]; mkRow (Some 150) (Some 7%N) [2]].
Proof. vm_compute. repeat split. Qed.

(* SELECT timestamp, <other columns> (no metric_name): every row comes back twice *)
Theorem refuted_projection_duplicates :
  exists (h : list hop) (q : query),
    let st := hrun (init_state 1) h in
    i_buffer st = [] /\ has_active_split st = true /\
    known_class (written_rows h) q = KProjection /\
    length (result_rows (query_state st q)) = 8%nat /\
    length (result_rows (run_query false q [written_rows h])) = 4%nat /\
    ~ Permutation (result_rows (query_state st q)) (result_rows (run_query false q [written_rows h])).
Proof.
  exists wit_series, (q_all (PRaw true false true)). cbv zeta.
  repeat (split; [vm_compute; reflexivity|]).
  intro H. apply Permutation_length in H. revert H. vm_compute. discriminate.
Qed.

(* the same sample written twice *)
Definition wit_identical : list hop :=
  wit_prefix ++ [HWrite 1 (mkIBatch 1 TsInt64 [rw 50 7 1 10; rw 50 7 1 10; rw 150 7 1 40])].

(* a genuine exact duplicate is returned once *)
Theorem refuted_identical_rows_collapse :
  exists (h : list hop) (q : query),
    let st := hrun (init_state 1) h in
    i_buffer st = [] /\ has_active_split st = true /\
    known_class (written_rows h) q = KIdentical /\
    length (result_rows (query_state st q)) = 2%nat /\
    length (result_rows (run_query false q [written_rows h])) = 3%nat /\
    ~ Permutation (result_rows (query_state st q)) (result_rows (run_query false q [written_rows h])).
Proof.
  exists wit_identical, (q_all (PRaw true true true)). cbv zeta.
  repeat (split; [vm_compute; reflexivity|]).
  intro H. apply Permutation_length in H. revert H. vm_compute. discriminate.
Qed.

(* non-vacuity of history_modulo_known: the series witness satisfies all its
   hypotheses (and its rows share one (timestamp, metric) pair) *)
Example history_modulo_known_nonvacuous :
  let st := hrun (init_state 1) wit_series in
  i_buffer st = [] /\ has_active_split st = true /\
  known_class (written_rows wit_series) (q_all (PRaw true true true)) = KNone.
Proof. vm_compute. repeat split. Qed.

(* a Timestamp(Nanosecond) batch is rejected by the dual-write path — after it
   was appended to the old shard's buffer (and, here, flushed) *)
Example nanos_rejected_but_stored :
  let r := hstep (hrun (init_state 1) wit_prefix) (HWrite 1 (mkIBatch 2 TsNanos [rw 50 7 1 10])) in
  snd r = Failed E_SCHEMA /\ old_rows (fst r) = [rw 50 7 1 10] /\ new_rows (fst r) = [].
Proof. vm_compute. repeat split. Qed.

(* back-fill: a historical chunk of shard 1 is copied, split at the split
   point, under the new shards; during Backfill SELECT * still returns each
   row once, COUNT is doubled *)
Definition wit_backfill : list hop :=
  [HHist 1 [rw 50 7 1 10; rw 100 7 1 30; rw 150 7 2 40]; HStart 1 [11; 12]%N sp100; HProgress 1 PDual; HBackfill 1].

Example backfill_witness :
  let st := hrun (init_state 1) wit_backfill in
  shard_rows st 11 = [rw 50 7 1 10] /\
  shard_rows st 12 = [rw 100 7 1 30; rw 150 7 2 40] /\
  has_active_split st = true /\
  Permutation (result_rows (query_state st (q_all (PRaw true true true)))) (written_rows wit_backfill) /\
  result_rows (query_state st (q_all PCount)) = [mkRow None None [6]].
Proof. vm_compute. repeat split. apply Permutation_refl. Qed.

(* split-point decoding: big endian two's complement, exactly 8 bytes *)
Example split_ts_examples :
  split_ts sp100 = Some 100 /\
  split_ts [255; 255; 255; 255; 255; 255; 255; 255]%N = Some (-1) /\
  split_ts [128; 0; 0; 0; 0; 0; 0; 0]%N = Some i64_min /\
  split_ts [127; 255; 255; 255; 255; 255; 255; 255]%N = Some i64_max /\
  split_ts [0; 0; 0; 100]%N = None.
Proof. vm_compute. repeat split. Qed.
