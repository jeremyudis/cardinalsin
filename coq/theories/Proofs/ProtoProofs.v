(* The protobuf reader of Model/Proto.v.  Totality rests on one fact: every
   step of the message loop answers ([answers]) and moves the cursor strictly
   forward, so the loop's length + 1 iterations are never used up.  The round
   trip shows that one iteration reads exactly one encoded field ([consumes]). *)
From CS Require Import Base.Prelude Base.ListFacts Model.Proto.
Open Scope N_scope.

(* [answers P o]: o is an answer (Ok or Err), not a crash, and a value returned
   with Ok satisfies P *)
Definition answers {A : Type} (P : A -> Prop) (o : outcome A) : Prop :=
  match o with Done a => P a | Failed _ => True | Panic | Hang => False end.

Definition answered {A : Type} (o : outcome A) : Prop := answers (fun _ => True) o.

Lemma answers_obind : forall (A B : Type) (P : A -> Prop) (Q : B -> Prop) (o : outcome A) (f : A -> outcome B),
  answers P o -> (forall a, P a -> answers Q (f a)) -> answers Q (obind o f).
Proof. intros A B P Q [a| | |] f Ho Hf; cbn in *; auto. Qed.

Lemma answers_impl : forall (A : Type) (P Q : A -> Prop) (o : outcome A),
  answers P o -> (forall a, P a -> Q a) -> answers Q o.
Proof. intros A P Q [a| | |] Ho H; cbn in *; auto. Qed.

Lemma fold_left_snoc : forall (X : Type) (l acc : list X),
  fold_left (fun a x => a ++ [x]) l acc = acc ++ l.
Proof.
  intros X. induction l as [|x l IH]; intro acc; cbn [fold_left]; [symmetry; apply app_nil_r|].
  rewrite IH, <- app_assoc. reflexivity.
Qed.

Lemma add8_lt_U64 : forall n, n <= I63 -> n + 8 < U64.
Proof.
  intros n H. apply N.le_lt_trans with (I63 + 8); [|reflexivity].
  apply N.add_le_mono_r. exact H.
Qed.

Lemma lt_I63_lt_U64 : forall n, n < I63 -> n < U64.
Proof. intros n H. apply N.lt_trans with I63; [exact H|reflexivity]. Qed.

Lemma uadd_small : forall m a b, a + b < U64 -> uadd m a b = Done (a + b).
Proof. intros m a b H. unfold uadd. destruct (N.ltb_spec (a + b) U64); [reflexivity|lia]. Qed.

Lemma varint_loop_spec : forall rest pos shift result,
  answers (fun r => pos < snd r <= pos + N.of_nat (length rest)) (varint_loop rest pos shift result).
Proof.
  induction rest as [|b rest IH]; intros pos shift result; cbn [varint_loop]; [exact I|].
  cbn [length]. rewrite Nat2N.inj_succ.
  destruct (N.land b 128 =? 0); [cbn; lia|].
  destruct (64 <=? shift + 7); [exact I|].
  eapply answers_impl; [apply IH|]. cbv beta. lia.
Qed.

Lemma read_varint_spec : forall data s,
  answers (fun r => s < snd r <= N.of_nat (length data)) (read_varint data s).
Proof.
  intros data s. unfold read_varint.
  destruct (N.le_gt_cases (N.of_nat (length data)) s) as [Hge|Hlt].
  - rewrite skipn_all2 by lia. exact I.
  - eapply answers_impl; [apply varint_loop_spec|]. cbv beta. rewrite skipn_length. lia.
Qed.

Lemma slice_done : forall data s e,
  s <= e -> e <= N.of_nat (length data) ->
  slice data s e = Done (firstn (N.to_nat (e - s)) (skipn (N.to_nat s) data)).
Proof.
  intros data s e H1 H2. unfold slice.
  destruct (N.ltb_spec e s); [lia|].
  destruct (N.ltb_spec (N.of_nat (length data)) e); [lia|]. reflexivity.
Qed.

Lemma slice_length : forall data s e bs,
  slice data s e = Done bs -> N.of_nat (length bs) = e - s /\ s <= e /\ e <= N.of_nat (length data).
Proof.
  intros data s e bs H. unfold slice in H.
  destruct (N.ltb_spec e s); [discriminate|].
  destruct (N.ltb_spec (N.of_nat (length data)) e); [discriminate|].
  inversion H; subst. rewrite firstn_length, skipn_length. lia.
Qed.

Lemma delimited_end_spec : forall len pos l code,
  answers (fun e => e = pos + l /\ e <= len) (delimited_end len pos l code).
Proof.
  intros len pos l code. unfold delimited_end.
  destruct (pos + l <? U64); [|exact I].
  destruct (N.leb_spec (pos + l) len); cbn; auto.
Qed.

Lemma delimited_end_done : forall len pos l code,
  pos + l <= len -> len < U64 -> delimited_end len pos l code = Done (pos + l).
Proof.
  intros len pos l code Hle HU. unfold delimited_end.
  destruct (N.ltb_spec (pos + l) U64); [|lia].
  destruct (N.leb_spec (pos + l) len); [reflexivity|lia].
Qed.

(* the known arm of a length-delimited field that holds a nested message: the
   payload goes to [sub] and [k] puts the result into the accumulator.  The
   handlers of Model/Proto.v write these arms out; each is convertible to a
   [sub_message] (the two string arms of a label with
   [sub bs = Done (utf8_lossy bs)]), and where a lemma about [sub_message] is
   applied to an arm, or an arm is asked to be one ([consumes_delim]), the two
   are identified by conversion. *)
Definition sub_message {X A : Type} (c : cfg) (data : bytes) (len pos code : N)
           (sub : bytes -> outcome X) (k : X -> A) : outcome (A * N) :=
  obind (read_delim c data len pos code) (fun r =>
  obind (sub (fst r)) (fun x => Done (k x, snd r))).

(* what the known arms of a parser must guarantee: they answer, and when they
   succeed the cursor did not move backwards *)
Definition handler_ok {A : Type} (len : N) (h : handler A) : Prop :=
  forall field wt pos acc, pos <= len ->
    match h field wt pos acc with
    | None => True
    | Some o => answers (fun r => pos <= snd r) o
    end.

Section Current.
  Variable m : build.

  Lemma read_delim_spec : forall data pos code,
    answers (fun r => pos < snd r <= N.of_nat (length data) /\
                      N.of_nat (length (fst r)) <= N.of_nat (length data))
            (read_delim (current m) data (N.of_nat (length data)) pos code).
  Proof.
    intros data pos code. unfold read_delim.
    eapply answers_obind; [apply read_varint_spec|]. intros [v p] Hp. cbn [fst snd] in *.
    change (known_end (current m)) with delimited_end.
    eapply answers_obind; [apply delimited_end_spec|]. intros e [-> He].
    rewrite slice_done by lia. cbn [obind answers fst snd].
    rewrite firstn_length, skipn_length. lia.
  Qed.

  Lemma skip_field_spec : forall code wt data pos,
    pos <= N.of_nat (length data) -> N.of_nat (length data) < I63 ->
    answers (fun p2 => pos < p2) (skip_field (current m) code wt data (N.of_nat (length data)) pos).
  Proof.
    intros code wt data pos Hpos Hlen. unfold skip_field.
    pose proof (add8_lt_U64 pos) as HU.
    destruct (wt =? 0).
    { eapply answers_obind; [apply read_varint_spec|]. intros r Hr. cbn in *. lia. }
    destruct (wt =? 1).
    { rewrite uadd_small by lia. cbn. lia. }
    destruct (wt =? 2).
    { eapply answers_obind; [apply read_varint_spec|]. intros [v p] Hp. cbn [fst snd] in *.
      eapply answers_impl; [apply delimited_end_spec|]. cbv beta. lia. }
    destruct (wt =? 5); [|exact I].
    rewrite uadd_small by lia. cbn. lia.
  Qed.

  (* the loop: the cursor strictly increases, so length + 1 iterations are
     enough and the loop never crashes *)
  Lemma msg_loop_answered : forall (A : Type) code (h : handler A) data,
    N.of_nat (length data) < I63 ->
    handler_ok (N.of_nat (length data)) h ->
    forall fuel pos acc,
      N.of_nat (length data) - pos < N.of_nat fuel ->
      answered (msg_loop (current m) code h fuel data (N.of_nat (length data)) pos acc).
  Proof.
    intros A code h data Hlen Hh.
    induction fuel as [|fuel IH]; intros pos acc Hfuel; cbn [msg_loop];
      (destruct (N.ltb_spec pos (N.of_nat (length data))) as [Hlt|]; [|exact I]).
    - (* no fuel left although pos < length: excluded by Hfuel *) lia.
    - rewrite Nat2N.inj_succ in Hfuel.
      eapply answers_obind; [apply read_varint_spec|]. intros [tag pos1] Hp. cbn [fst snd] in *.
      specialize (Hh (N.shiftr tag 3) (N.land tag 7) pos1 acc (proj2 Hp)).
      destruct (h (N.shiftr tag 3) (N.land tag 7) pos1 acc) as [o|].
      + (* a known arm *)
        eapply answers_obind; [exact Hh|]. intros r Hr. cbv beta in Hr. apply IH. lia.
      + (* a skipped field *)
        eapply answers_obind; [apply skip_field_spec; [apply Hp|exact Hlen]|].
        intros p2 Hp2. cbv beta in Hp2. apply IH. lia.
  Qed.

  Lemma parse_msg_answered : forall (A : Type) code (h : bytes -> N -> handler A) data init,
    N.of_nat (length data) < I63 ->
    handler_ok (N.of_nat (length data)) (h data (N.of_nat (length data))) ->
    answered (parse_msg (current m) code h data init).
  Proof.
    intros A code h data init Hlen Hh. unfold parse_msg.
    apply msg_loop_answered; auto. rewrite Nat2N.inj_succ. lia.
  Qed.

  Lemma sub_message_ok : forall (X A : Type) (sub : bytes -> outcome X) (k : X -> A) data pos code,
    (forall bs, N.of_nat (length bs) <= N.of_nat (length data) -> answered (sub bs)) ->
    answers (fun r => pos <= snd r) (sub_message (current m) data (N.of_nat (length data)) pos code sub k).
  Proof.
    intros X A sub k data pos code Hsub. unfold sub_message.
    eapply answers_obind; [apply read_delim_spec|]. intros [bs e] [He Hbs]. cbn [fst snd] in *.
    eapply answers_obind; [apply Hsub; exact Hbs|]. intros x _. cbn. lia.
  Qed.

  Lemma parse_sample_answered : forall data,
    N.of_nat (length data) < I63 -> answered (parse_sample (current m) data).
  Proof.
    intros data Hlen. unfold parse_sample. apply parse_msg_answered; [exact Hlen|].
    intros field wt pos acc Hpos. unfold sample_handler.
    destruct ((field =? 1) && (wt =? 1)).
    { rewrite uadd_small by (apply add8_lt_U64; lia). cbn [obind].
      destruct (N.ltb_spec (N.of_nat (length data)) (pos + 8)); [exact I|].
      rewrite slice_done by lia. cbn. lia. }
    destruct ((field =? 2) && (wt =? 0)); [|exact I].
    eapply answers_obind; [apply read_varint_spec|]. intros r Hr. cbn in *. lia.
  Qed.

  Lemma parse_label_answered : forall data,
    N.of_nat (length data) < I63 -> answered (parse_label (current m) data).
  Proof.
    intros data Hlen. unfold parse_label. apply parse_msg_answered; [exact Hlen|].
    intros field wt pos acc Hpos. unfold label_handler.
    destruct ((field =? 1) && (wt =? 2)); [|destruct ((field =? 2) && (wt =? 2)); [|exact I]].
    (* name, value: [read_delim] leaves the cursor behind the string *)
    all: eapply answers_obind; [apply read_delim_spec|]; intros [bs e] [He _]; cbn [answers snd] in *; lia.
  Qed.

  Lemma parse_timeseries_answered : forall data,
    N.of_nat (length data) < I63 -> answered (parse_timeseries (current m) data).
  Proof.
    intros data Hlen. unfold parse_timeseries. apply parse_msg_answered; [exact Hlen|].
    intros field wt pos acc Hpos. unfold series_handler.
    destruct ((field =? 1) && (wt =? 2)).
    { apply (sub_message_ok _ _ (parse_label (current m))). intros bs Hbs. apply parse_label_answered. lia. }
    destruct ((field =? 2) && (wt =? 2)); [|exact I].
    apply (sub_message_ok _ _ (parse_sample (current m))). intros bs Hbs. apply parse_sample_answered. lia.
  Qed.

  Lemma parse_write_request_answered : forall data,
    N.of_nat (length data) < I63 -> answered (parse_write_request (current m) data).
  Proof.
    intros data Hlen. unfold parse_write_request. apply parse_msg_answered; [exact Hlen|].
    intros field wt pos acc Hpos. unfold request_handler.
    destruct ((field =? 1) && (wt =? 2)); [|exact I].
    apply (sub_message_ok _ _ (parse_timeseries (current m))). intros bs Hbs.
    apply parse_timeseries_answered. lia.
  Qed.
End Current.

(* parse_total: every byte string (Rust slices are shorter than 2^63 bytes) is
   answered with Ok or Err by the current code, in debug and release builds *)
Theorem parse_total : forall (m : build) (data : bytes),
  N.of_nat (length data) < I63 ->
  match parse_write_request (current m) data with
  | Done _ | Failed _ => True
  | Panic | Hang => False
  end.
Proof. exact parse_write_request_answered. Qed.

(* The build mode.  A debug build panics where a release build wraps and does
   nothing else differently, so whatever it answers is also the release
   build's answer.  This holds of the code before 10ed38f as well. *)
Definition refines {A : Type} (d r : outcome A) : Prop := d = Panic \/ d = r.

Lemma refines_refl : forall (A : Type) (o : outcome A), refines o o.
Proof. right. reflexivity. Qed.

Lemma refines_obind : forall (A B : Type) (d r : outcome A) (f g : A -> outcome B),
  refines d r -> (forall a, refines (f a) (g a)) -> refines (obind d f) (obind r g).
Proof.
  intros A B d r f g [->| ->] H; [left; reflexivity|].
  destruct r; [apply H|apply refines_refl..].
Qed.

Definition handler_refines {A : Type} (hd hr : handler A) : Prop :=
  forall field wt pos acc,
    match hd field wt pos acc, hr field wt pos acc with
    | Some od, Some or => refines od or
    | None, None => True
    | _, _ => False
    end.

Section Mode.
  Variable c : cfg.
  Let d := mkCfg Debug (c_checked c).

  Lemma uadd_refines : forall a b, refines (uadd Debug a b) (uadd (c_mode c) a b).
  Proof.
    intros a b. unfold uadd. destruct (a + b <? U64); [apply refines_refl|left; reflexivity].
  Qed.

  Lemma known_end_refines : forall len pos l code,
    refines (known_end d len pos l code) (known_end c len pos l code).
  Proof.
    intros len pos l code. unfold known_end, d. cbn [c_checked c_mode].
    destruct (c_checked c); [apply refines_refl|].
    apply refines_obind; [apply uadd_refines|intro; apply refines_refl].
  Qed.

  Lemma skip_end_refines : forall len pos l,
    refines (skip_end d len pos l) (skip_end c len pos l).
  Proof.
    intros len pos l. unfold skip_end, d. cbn [c_checked c_mode].
    destruct (c_checked c); [apply refines_refl|apply uadd_refines].
  Qed.

  Lemma read_delim_refines : forall data len pos code,
    refines (read_delim d data len pos code) (read_delim c data len pos code).
  Proof.
    intros data len pos code. unfold read_delim.
    apply refines_obind; [apply refines_refl|]. intro r.
    apply refines_obind; [apply known_end_refines|]. intro e. apply refines_refl.
  Qed.

  Lemma sub_message_refines : forall (X A : Type) (subd subr : bytes -> outcome X) (k : X -> A) data len pos code,
    (forall bs, refines (subd bs) (subr bs)) ->
    refines (sub_message d data len pos code subd k) (sub_message c data len pos code subr k).
  Proof.
    intros X A subd subr k data len pos code Hsub. unfold sub_message.
    apply refines_obind; [apply read_delim_refines|]. intro r.
    apply refines_obind; [apply Hsub|]. intro x. apply refines_refl.
  Qed.

  Lemma skip_field_refines : forall code wt data len pos,
    refines (skip_field d code wt data len pos) (skip_field c code wt data len pos).
  Proof.
    intros code wt data len pos. unfold skip_field.
    destruct (wt =? 0); [apply refines_refl|].
    destruct (wt =? 1); [apply uadd_refines|].
    destruct (wt =? 2); [apply refines_obind; [apply refines_refl|intro; apply skip_end_refines]|].
    destruct (wt =? 5); [apply uadd_refines|apply refines_refl].
  Qed.

  Lemma msg_loop_refines : forall (A : Type) code (hd hr : handler A) data len,
    handler_refines hd hr ->
    forall fuel pos acc,
      refines (msg_loop d code hd fuel data len pos acc) (msg_loop c code hr fuel data len pos acc).
  Proof.
    intros A code hd hr data len Hh.
    induction fuel as [|fuel IH]; intros pos acc; cbn [msg_loop].
    { (* no fuel: Hang or Done on both sides *) apply refines_refl. }
    destruct (pos <? len); [|apply refines_refl].
    apply refines_obind; [apply refines_refl|]. intros [tag pos1]. cbn [fst snd].
    specialize (Hh (N.shiftr tag 3) (N.land tag 7) pos1 acc).
    destruct (hd (N.shiftr tag 3) (N.land tag 7) pos1 acc), (hr (N.shiftr tag 3) (N.land tag 7) pos1 acc);
      try contradiction.
    - (* a known arm *) apply refines_obind; [exact Hh|]. intro r. apply IH.
    - (* a skipped field *) apply refines_obind; [apply skip_field_refines|]. intro p2. apply IH.
  Qed.

  Lemma parse_msg_refines : forall (A : Type) code (hd hr : bytes -> N -> handler A) data init,
    handler_refines (hd data (N.of_nat (length data))) (hr data (N.of_nat (length data))) ->
    refines (parse_msg d code hd data init) (parse_msg c code hr data init).
  Proof. intros A code hd hr data init Hh. unfold parse_msg. apply msg_loop_refines. exact Hh. Qed.

  Lemma parse_sample_refines : forall data, refines (parse_sample d data) (parse_sample c data).
  Proof.
    intro data. unfold parse_sample. apply parse_msg_refines.
    intros field wt pos acc. unfold sample_handler.
    destruct ((field =? 1) && (wt =? 1)); cbv iota.
    { apply refines_obind; [apply uadd_refines|intro; apply refines_refl]. }
    destruct ((field =? 2) && (wt =? 0)); cbv iota; [apply refines_refl|exact I].
  Qed.

  Lemma parse_label_refines : forall data, refines (parse_label d data) (parse_label c data).
  Proof.
    intro data. unfold parse_label. apply parse_msg_refines.
    intros field wt pos acc. unfold label_handler.
    destruct ((field =? 1) && (wt =? 2)); [|destruct ((field =? 2) && (wt =? 2)); [|exact I]]; cbv iota;
      (apply refines_obind; [apply read_delim_refines|intro; apply refines_refl]).
  Qed.

  Lemma parse_timeseries_refines : forall data, refines (parse_timeseries d data) (parse_timeseries c data).
  Proof.
    intro data. unfold parse_timeseries. apply parse_msg_refines.
    intros field wt pos acc. unfold series_handler.
    destruct ((field =? 1) && (wt =? 2)); cbv iota.
    { apply sub_message_refines, parse_label_refines. }
    destruct ((field =? 2) && (wt =? 2)); cbv iota; [|exact I].
    apply sub_message_refines, parse_sample_refines.
  Qed.

  Lemma parse_write_request_refines : forall data,
    refines (parse_write_request d data) (parse_write_request c data).
  Proof.
    intro data. unfold parse_write_request. apply parse_msg_refines.
    intros field wt pos acc. unfold request_handler.
    destruct ((field =? 1) && (wt =? 2)); cbv iota; [|exact I].
    apply sub_message_refines, parse_timeseries_refines.
  Qed.
End Mode.

(* the current code never panics, so its two builds compute the same answer *)
Theorem mode_irrelevant : forall (data : bytes), N.of_nat (length data) < I63 ->
  parse_write_request (current Release) data = parse_write_request (current Debug) data.
Proof.
  intros data H.
  destruct (parse_write_request_refines (current Release) data) as [E|E]; [|symmetry; exact E].
  pose proof (parse_total Debug data H) as Ha.
  change (parse_write_request (current Debug) data = Panic) in E. rewrite E in Ha. contradiction.
Qed.

(* the code before 10ed38f: the recorded witnesses.  Each is a tag byte and a
   ten-byte length varint, after which the cursor stands at 11.
   [witness_known]: tag 10 = field 1, wire type 2 (a time series), length
   2^64 - 1, so 11 + length overflows.  [witness_known_wrap]: the same field
   with length 2^64 - 6; the release build wraps the end to 5 and slices
   data[11..5].  [witness_skip]: tag 26 = field 3, wire type 2 (unknown, hence
   skipped), length 2^64 - 11; the release build wraps the cursor to 0 and
   starts over. *)
Definition witness_known : bytes := [10; 255; 255; 255; 255; 255; 255; 255; 255; 255; 1].
Definition witness_known_wrap : bytes := [10; 250; 255; 255; 255; 255; 255; 255; 255; 255; 1].
Definition witness_skip : bytes := [26; 245; 255; 255; 255; 255; 255; 255; 255; 255; 1].

Lemma legacy_refuted_len_overflow :
  parse_write_request (legacy Debug) witness_known = Panic /\
  parse_write_request (legacy Release) witness_known_wrap = Panic /\
  parse_write_request (legacy Debug) witness_skip = Panic /\
  parse_write_request (legacy Release) witness_skip = Hang.
Proof. vm_compute. repeat split; reflexivity. Qed.

Lemma current_witnesses_answered :
  parse_write_request (current Debug) witness_known = Failed E_TRUNC_TIMESERIES /\
  parse_write_request (current Release) witness_known_wrap = Failed E_TRUNC_TIMESERIES /\
  parse_write_request (current Debug) witness_skip = Failed E_TRUNC_FIELD /\
  parse_write_request (current Release) witness_skip = Failed E_TRUNC_FIELD.
Proof. vm_compute. repeat split; reflexivity. Qed.

(* Round trip: parse (encode r) = r.  Positions are kept in the form
   [N.of_nat (length pre)], where [pre] is what has been read so far. *)

Lemma len_app : forall (a b : bytes),
  N.of_nat (length (a ++ b)) = N.of_nat (length a) + N.of_nat (length b).
Proof. intros a b. rewrite app_length. apply Nat2N.inj_add. Qed.

Lemma slice_mid : forall data pre mid post, data = pre ++ mid ++ post ->
  slice data (N.of_nat (length pre)) (N.of_nat (length (pre ++ mid))) = Done mid.
Proof.
  intros data pre mid post ->. rewrite slice_done by (rewrite !len_app; lia). f_equal.
  rewrite Nat2N.id, skipn_len_app by reflexivity. apply firstn_len_app. rewrite len_app. lia.
Qed.

Lemma land127_mod : forall n, N.land n 127 = n mod 128.
Proof. intro n. change 127 with (N.ones 7). rewrite N.land_ones. reflexivity. Qed.

Lemma last_byte_bits : forall b, b < 128 -> N.land b 127 = b /\ N.land b 128 = 0.
Proof.
  intros b Hb.
  assert (E : N.land b 127 = b) by (rewrite land127_mod; apply N.mod_small; exact Hb).
  split; [exact E|]. rewrite <- E, <- N.land_assoc. apply N.land_0_r.
Qed.

Lemma cont_byte_bits : forall n,
  N.land (N.lor (N.land n 127) 128) 127 = N.land n 127 /\
  N.land (N.lor (N.land n 127) 128) 128 = 128.
Proof.
  intro n. rewrite !N.land_lor_distr_l, <- !N.land_assoc. split.
  - apply N.lor_0_r.
  - change (N.land 127 128) with 0. rewrite N.land_0_r. reflexivity.
Qed.

Lemma varint_bits : forall n s,
  N.lor (N.shiftl (N.land n 127) s) (N.shiftl (N.shiftr n 7) (s + 7)) = N.shiftl n s.
Proof.
  intros n s. apply N.bits_inj. intro i. rewrite N.lor_spec.
  destruct (N.lt_ge_cases i s) as [Hlo|Hhi].
  - rewrite !N.shiftl_spec_low by lia. reflexivity.
  - rewrite (N.shiftl_spec_high' (N.land n 127) s i) by lia.
    rewrite (N.shiftl_spec_high' n s i) by lia. rewrite N.land_spec.
    destruct (N.lt_ge_cases i (s + 7)) as [Hmid|Htop].
    + rewrite (N.shiftl_spec_low _ (s + 7) i) by lia. rewrite orb_false_r.
      change 127 with (N.ones 7). rewrite N.ones_spec_low by lia. apply andb_true_r.
    + rewrite N.shiftl_spec_high' by lia. rewrite N.shiftr_spec'.
      change 127 with (N.ones 7). rewrite N.ones_spec_high by lia.
      rewrite andb_false_r. cbn [orb]. f_equal. lia.
Qed.

Lemma varint_loop_last : forall b rest pos shift result,
  b < 128 -> b * 2 ^ shift < U64 ->
  varint_loop (b :: rest) pos shift result = Done (N.lor result (N.shiftl b shift), pos + 1).
Proof.
  intros b rest pos shift result Hb Hs. cbn [varint_loop].
  destruct (last_byte_bits b Hb) as [H1 H2]. rewrite H1, H2. cbn [N.eqb].
  rewrite N.shiftl_mul_pow2, N.mod_small by exact Hs. reflexivity.
Qed.

Lemma varint_loop_more : forall n rest pos shift result,
  128 <= n -> n * 2 ^ shift < U64 ->
  varint_loop (N.lor (N.land n 127) 128 :: rest) pos shift result
  = varint_loop rest (pos + 1) (shift + 7) (N.lor result (N.shiftl (N.land n 127) shift)).
Proof.
  intros n rest pos shift result Hn Hs. cbn [varint_loop].
  destruct (cont_byte_bits n) as [H1 H2]. rewrite H1, H2. cbn [N.eqb].
  (* shift + 7 < 64 because n >= 128 and n * 2^shift < 2^64 *)
  assert (Hsh : shift + 7 < 64).
  { apply (N.pow_lt_mono_r_iff 2); [lia|].
    change (2 ^ 64) with U64. rewrite N.pow_add_r. change (2 ^ 7) with 128. nia. }
  destruct (N.leb_spec 64 (shift + 7)) as [|_]; [lia|].
  rewrite N.mod_small; [reflexivity|].
  rewrite N.shiftl_mul_pow2, land127_mod.
  eapply N.le_lt_trans; [|exact Hs]. apply N.mul_le_mono_r. apply N.mod_le. discriminate.
Qed.

Lemma enc_varint_fuel_S : forall f n,
  enc_varint_fuel (S f) n
  = if n <? 128 then [n] else N.lor (N.land n 127) 128 :: enc_varint_fuel f (N.shiftr n 7).
Proof. reflexivity. Qed.

Lemma enc_varint_fuel_nonempty : forall f n, enc_varint_fuel (S f) n <> [].
Proof. intros f n. rewrite enc_varint_fuel_S. destruct (n <? 128); discriminate. Qed.

Lemma enc_varint_nonempty : forall n, (1 <= length (enc_varint n))%nat.
Proof.
  intro n. unfold enc_varint. pose proof (enc_varint_fuel_nonempty 9 n) as H.
  destruct (enc_varint_fuel 10 n); [contradiction|cbn [length]; lia].
Qed.

Lemma enc_tag_app_nonempty : forall field wt body, enc_tag field wt ++ body <> [].
Proof.
  intros field wt body E. apply app_eq_nil in E. exact (enc_varint_fuel_nonempty 9 _ (proj1 E)).
Qed.

Lemma varint_loop_enc : forall fuel n shift result pos post,
  n < 2 ^ (7 * N.of_nat (S fuel)) -> n * 2 ^ shift < U64 ->
  varint_loop (enc_varint_fuel (S fuel) n ++ post) pos shift result
  = Done (N.lor result (N.shiftl n shift), pos + N.of_nat (length (enc_varint_fuel (S fuel) n))).
Proof.
  (* n < 128 is one byte, whatever the fuel *)
  induction fuel as [|fuel IH]; intros n shift result pos post Hn Hs;
    rewrite enc_varint_fuel_S; (destruct (N.ltb_spec n 128) as [Hsmall|Hbig];
    [exact (varint_loop_last n post pos shift result Hsmall Hs)|]).
  - (* one byte allowed: n < 2^7 *) exfalso. change (2 ^ (7 * N.of_nat 1)) with 128 in Hn. lia.
  - (* a continuation byte, then n / 128 *) cbn [app length]. rewrite varint_loop_more by assumption.
    assert (Hdiv : N.shiftr n 7 = n / 128) by apply N.shiftr_div_pow2.
    rewrite IH.
    + rewrite <- N.lor_assoc, varint_bits, Nat2N.inj_succ. f_equal. f_equal. lia.
    + rewrite Hdiv. apply N.div_lt_upper_bound; [discriminate|].
      replace (7 * N.of_nat (S (S fuel))) with (7 + 7 * N.of_nat (S fuel)) in Hn by lia.
      rewrite N.pow_add_r in Hn. exact Hn.
    + rewrite Hdiv, N.pow_add_r. change (2 ^ 7) with 128.
      eapply N.le_lt_trans; [|exact Hs].
      rewrite (N.mul_comm (2 ^ shift)), N.mul_assoc. apply N.mul_le_mono_r.
      rewrite N.mul_comm. apply N.mul_div_le. discriminate.
Qed.

Lemma read_varint_enc : forall n data pre post, n < U64 ->
  data = pre ++ enc_varint n ++ post ->
  read_varint data (N.of_nat (length pre)) = Done (n, N.of_nat (length (pre ++ enc_varint n))).
Proof.
  intros n data pre post Hn ->. unfold read_varint, enc_varint.
  rewrite Nat2N.id, skipn_len_app by reflexivity. rewrite varint_loop_enc.
  - rewrite N.shiftl_0_r, N.lor_0_l, len_app. reflexivity.
  - eapply N.lt_trans; [exact Hn|]. vm_compute. reflexivity.
  - rewrite N.pow_0_r, N.mul_1_r. exact Hn.
Qed.

Lemma enc_varint_length_le : forall u, (length (enc_varint u) <= 10)%nat.
Proof.
  unfold enc_varint. generalize 10%nat as f.
  induction f as [|f IH]; intro u; cbn [enc_varint_fuel length]; [lia|].
  destruct (u <? 128); cbn [length]; [lia|]. specialize (IH (N.shiftr u 7)). lia.
Qed.

Lemma tag_fields : forall field wt, wt < 8 ->
  N.shiftr (field * 8 + wt) 3 = field /\ N.land (field * 8 + wt) 7 = wt.
Proof.
  intros field wt Hw. split.
  - rewrite N.shiftr_div_pow2. change (2 ^ 3) with 8.
    rewrite N.div_add_l, N.div_small by (exact Hw || discriminate). apply N.add_0_r.
  - change 7 with (N.ones 3). rewrite N.land_ones. change (2 ^ 3) with 8.
    rewrite N.add_comm, N.mod_add by discriminate. apply N.mod_small. exact Hw.
Qed.

Lemma as_i64_as_u64 : forall z, (- Z.of_N I63 <= z < Z.of_N I63)%Z -> as_i64 (as_u64 z) = z.
Proof.
  intros z Hz. unfold as_i64, as_u64.
  assert (HM : Z.of_N U64 = (2 * Z.of_N I63)%Z) by reflexivity.
  (* reducing modulo 2^64 adds 2^64 to a negative z and leaves the others alone *)
  assert (E : ((0 <= z /\ z mod Z.of_N U64 = z) \/ (z < 0 /\ z mod Z.of_N U64 = z + Z.of_N U64))%Z).
  { destruct (Z.neg_nonneg_cases z); [right|left]; (split; [assumption|]).
    - rewrite <- (Z_mod_plus_full z 1), Z.mul_1_l. apply Z.mod_small. lia.
    - apply Z.mod_small. lia. }
  destruct (N.ltb_spec (Z.to_N (z mod Z.of_N U64)) I63); lia.
Qed.

Lemma as_u64_lt : forall z, as_u64 z < U64.
Proof.
  intro z. unfold as_u64. pose proof (Z.mod_pos_bound z (Z.of_N U64) eq_refl). lia.
Qed.

Lemma le_bytes_length : forall k n, length (le_bytes k n) = k.
Proof. induction k; intros; cbn [le_bytes length]; auto. Qed.

Lemma le_value_le_bytes : forall k n, le_value (le_bytes k n) = n mod 256 ^ N.of_nat k.
Proof.
  induction k as [|k IH]; intro n.
  - cbn. rewrite N.mod_1_r. reflexivity.
  - cbn [le_bytes le_value]. rewrite IH. rewrite Nat2N.inj_succ, N.pow_succ_r'.
    rewrite N.mod_mul_r; [reflexivity|discriminate|]. apply N.pow_nonzero. discriminate.
Qed.

Lemma read_delim_enc : forall m data pre payload post code,
  data = pre ++ enc_varint (N.of_nat (length payload)) ++ payload ++ post ->
  N.of_nat (length data) < U64 ->
  read_delim (current m) data (N.of_nat (length data)) (N.of_nat (length pre)) code
  = Done (payload, N.of_nat (length (pre ++ enc_varint (N.of_nat (length payload)) ++ payload))).
Proof.
  intros m data pre payload post code Hd HU. unfold read_delim.
  set (V := enc_varint (N.of_nat (length payload))) in *.
  assert (Hl : N.of_nat (length (pre ++ V)) + N.of_nat (length payload) <= N.of_nat (length data))
    by (rewrite Hd, !len_app; lia).
  rewrite (read_varint_enc (N.of_nat (length payload)) data pre (payload ++ post)) by (lia || exact Hd).
  cbn [obind fst snd]. fold V.
  change (known_end (current m)) with delimited_end. rewrite delimited_end_done by assumption.
  cbn [obind]. rewrite <- len_app.
  rewrite (slice_mid data (pre ++ V) payload post) by (rewrite Hd, <- app_assoc; reflexivity).
  cbn [obind]. rewrite <- app_assoc. reflexivity.
Qed.

Lemma msg_loop_end : forall (A : Type) c code (h : handler A) fuel data acc,
  msg_loop c code h fuel data (N.of_nat (length data)) (N.of_nat (length data)) acc = Done acc.
Proof.
  intros. destruct fuel; cbn [msg_loop]; rewrite N.ltb_irrefl; reflexivity.
Qed.

Lemma items_le_bytes : forall (X : Type) (enc : X -> bytes) (items : list X),
  (forall x, In x items -> enc x <> []) ->
  (length items <= length (concat (map enc items)))%nat.
Proof.
  intros X enc items Hf. induction items as [|x items IH]; cbn [map concat length]; [lia|].
  rewrite app_length. specialize (IH (fun y Hy => Hf y (or_intror Hy))).
  pose proof (Hf x (or_introl eq_refl)) as Hx. destruct (enc x); [contradiction|cbn [length]; lia].
Qed.

Section Fields.
  Variables (A : Type) (m : build) (code : N) (h : bytes -> N -> handler A) (data : bytes).

  (* the loop of [parse_msg (current m) code h data] *)
  Definition field_loop (fuel : nat) (pos : N) (acc : A) : outcome A :=
    msg_loop (current m) code (h data (N.of_nat (length data))) fuel data (N.of_nat (length data)) pos acc.

  (* one iteration, started where [chunk] begins, reads exactly [chunk], which
     is not empty, and turns the accumulator into [f acc] *)
  Definition consumes (chunk : bytes) (f : A -> A) : Prop :=
    chunk <> [] /\ forall pre post acc fuel, data = pre ++ chunk ++ post ->
      field_loop (S fuel) (N.of_nat (length pre)) acc
      = field_loop fuel (N.of_nat (length (pre ++ chunk))) (f acc).

  Lemma consumes_field : forall field wt body f, field * 8 + wt < U64 -> wt < 8 ->
    (forall p post acc, data = p ++ body ++ post ->
       h data (N.of_nat (length data)) field wt (N.of_nat (length p)) acc
       = Some (Done (f acc, N.of_nat (length (p ++ body))))) ->
    consumes (enc_tag field wt ++ body) f.
  Proof.
    intros field wt body f Ht Hw Hh. split; [apply enc_tag_app_nonempty|].
    destruct (tag_fields field wt Hw) as (Efield & Ewt).
    intros pre post acc fuel Hd. rewrite <- app_assoc in Hd.
    (* the arm runs behind the tag *)
    specialize (Hh (pre ++ enc_tag field wt) post acc). rewrite <- !app_assoc in Hh. specialize (Hh Hd).
    unfold enc_tag, field_loop in *. cbn [msg_loop].
    destruct (N.ltb_spec (N.of_nat (length pre)) (N.of_nat (length data))) as [_|Hge].
    2: { (* the tag lies before the end *)
         pose proof (enc_varint_nonempty (field * 8 + wt)). rewrite Hd, !len_app in Hge. lia. }
    rewrite (read_varint_enc (field * 8 + wt) data pre (body ++ post) Ht Hd).
    cbn [obind fst snd]. rewrite Efield, Ewt, Hh. reflexivity.
  Qed.

  Lemma msg_loop_items : forall (X : Type) (enc : X -> bytes) (upd : A -> X -> A) items,
    (forall x, In x items -> consumes (enc x) (fun a => upd a x)) ->
    forall pre post acc fuel, data = pre ++ concat (map enc items) ++ post ->
      field_loop (length items + fuel) (N.of_nat (length pre)) acc
      = field_loop fuel (N.of_nat (length (pre ++ concat (map enc items)))) (fold_left upd items acc).
  Proof.
    intros X enc upd. induction items as [|x items IH]; intros Hc pre post acc fuel Hd;
      cbn [map concat length fold_left Nat.add] in *.
    - rewrite app_nil_r. reflexivity.
    - rewrite <- app_assoc in Hd.
      rewrite (proj2 (Hc x (or_introl eq_refl)) pre _ acc _ Hd).
      rewrite (IH (fun y Hy => Hc y (or_intror Hy)) (pre ++ enc x) post) by (rewrite <- app_assoc; exact Hd).
      rewrite <- app_assoc. reflexivity.
  Qed.

  (* an item takes one iteration, and the loop has length data + 1 of them:
     enough when no item is empty *)
  Lemma parse_msg_items : forall (X : Type) (enc : X -> bytes) (upd : A -> X -> A) items init,
    (forall x, In x items -> consumes (enc x) (fun a => upd a x)) ->
    data = concat (map enc items) ->
    parse_msg (current m) code h data init = Done (fold_left upd items init).
  Proof.
    intros X enc upd items init Hc Hd.
    change (field_loop (S (length data)) 0 init = Done (fold_left upd items init)).
    assert (Hn : (length items <= length data)%nat)
      by (rewrite Hd; apply items_le_bytes; intros x Hx; apply (Hc x Hx)).
    replace (S (length data)) with (length items + (S (length data) - length items))%nat by lia.
    etransitivity; [apply (msg_loop_items X enc upd items Hc [] []); rewrite app_nil_r; exact Hd|].
    cbn [app]. rewrite <- Hd. apply msg_loop_end.
  Qed.

  (* a message of two fields, as the items (bytes, update) of [parse_msg_items] *)
  Lemma parse_msg_two : forall c1 f1 c2 f2 init,
    consumes c1 f1 -> consumes c2 f2 -> data = c1 ++ c2 ->
    parse_msg (current m) code h data init = Done (f2 (f1 init)).
  Proof.
    intros c1 f1 c2 f2 init H1 H2 Hd.
    apply (parse_msg_items _ fst (fun a p => snd p a) [(c1, f1); (c2, f2)]).
    - intros x [<-|[<-|[]]]; assumption.
    - cbn [map concat fst]. rewrite app_nil_r. exact Hd.
  Qed.

  Lemma consumes_delim : forall (X : Type) field code' (sub : bytes -> outcome X) (k : A -> X -> A) payload x,
    field * 8 + 2 < U64 -> N.of_nat (length data) < I63 ->
    (forall pos acc, h data (N.of_nat (length data)) field 2 pos acc
       = Some (sub_message (current m) data (N.of_nat (length data)) pos code' sub (k acc))) ->
    (N.of_nat (length payload) <= N.of_nat (length data) -> sub payload = Done x) ->
    consumes (enc_delim field payload) (fun a => k a x).
  Proof.
    intros X field code' sub k payload x Hf Hlen Harm Hsub. unfold enc_delim.
    apply consumes_field; [exact Hf|reflexivity|].
    intros p post acc Hd. rewrite <- app_assoc in Hd. rewrite Harm. unfold sub_message.
    rewrite (read_delim_enc m data p payload post code' Hd (lt_I63_lt_U64 _ Hlen)).
    cbn [obind fst snd]. rewrite Hsub.
    - reflexivity.
    - rewrite Hd, !len_app. lia.
  Qed.
End Fields.
Arguments consumes {A}.
Arguments parse_msg_items {A m code h data X}.
Arguments parse_msg_two {A m code h data c1 f1 c2 f2 init}.

Lemma sample_value_consumes : forall m data bs,
  length bs = 8%nat -> N.of_nat (length data) < I63 ->
  consumes m E_WIRE_SAMPLE (sample_handler (current m)) data
           (enc_tag 1 1 ++ bs) (fun a => mkSample (s_ts a) (le_value bs)).
Proof.
  intros m data bs Hbs Hlen. apply consumes_field; [reflexivity..|].
  intros p post acc Hd. unfold sample_handler.
  change ((1 =? 1) && (1 =? 1)) with true. cbv iota.
  assert (He : N.of_nat (length p) + 8 = N.of_nat (length (p ++ bs))) by (rewrite len_app, Hbs; reflexivity).
  assert (Hle : N.of_nat (length (p ++ bs)) <= N.of_nat (length data)) by (rewrite Hd, !len_app; lia).
  rewrite uadd_small by (apply add8_lt_U64; lia). cbn [obind]. rewrite He.
  destruct (N.ltb_spec (N.of_nat (length data)) (N.of_nat (length (p ++ bs)))); [lia|].
  rewrite (slice_mid data p bs post Hd). reflexivity.
Qed.

Lemma sample_ts_consumes : forall m data v, v < U64 ->
  consumes m E_WIRE_SAMPLE (sample_handler (current m)) data
           (enc_tag 2 0 ++ enc_varint v) (fun a => mkSample (as_i64 v) (s_bits a)).
Proof.
  intros m data v Hv. apply consumes_field; [reflexivity..|].
  intros p post acc Hd. unfold sample_handler.
  change ((2 =? 1) && (0 =? 1)) with false. change ((2 =? 2) && (0 =? 0)) with true. cbv iota.
  rewrite (read_varint_enc v data p post Hv Hd). reflexivity.
Qed.

Lemma enc_sample_short : forall s, N.of_nat (length (enc_sample s)) < I63.
Proof.
  intro s. unfold enc_sample, enc_tag. rewrite !app_length, le_bytes_length.
  pose proof (enc_varint_length_le (1 * 8 + 1)). pose proof (enc_varint_length_le (2 * 8 + 0)).
  pose proof (enc_varint_length_le (as_u64 (s_ts s))).
  apply N.le_lt_trans with 38; [lia|reflexivity].
Qed.

Lemma parse_sample_enc : forall m s,
  wf_sample s -> parse_sample (current m) (enc_sample s) = Done s.
Proof.
  intros m [ts bits] [Hts Hbits]. cbn [s_ts s_bits] in *. unfold parse_sample.
  rewrite (parse_msg_two (sample_value_consumes m _ _ (le_bytes_length 8 bits) (enc_sample_short _))
                         (sample_ts_consumes m _ _ (as_u64_lt ts))).
  - cbn [s_ts s_bits]. rewrite as_i64_as_u64, le_value_le_bytes, N.mod_small by assumption. reflexivity.
  - unfold enc_sample. cbn [s_ts s_bits]. rewrite <- app_assoc. reflexivity.
Qed.

Lemma parse_label_enc : forall m l,
  wf_label l -> N.of_nat (length (enc_label l)) < I63 ->
  parse_label (current m) (enc_label l) = Done l.
Proof.
  intros m [name value] [[_ Hn] [_ Hv]] Hlen. cbn [l_name l_value] in *. unfold parse_label.
  rewrite (parse_msg_two (c1 := enc_delim 1 name) (f1 := fun a => mkLabel name (l_value a))
                         (c2 := enc_delim 2 value) (f2 := fun a => mkLabel (l_name a) value)).
  - reflexivity.
  - (* of the two [reflexivity], the second identifies the arm with this [sub_message] *)
    apply consumes_delim with (code' := E_TRUNC_LABEL_NAME) (sub := fun bs => Done (utf8_lossy bs))
                              (k := fun a y => mkLabel y (l_value a));
      [reflexivity|exact Hlen|reflexivity|intros _; rewrite Hn; reflexivity].
  - apply consumes_delim with (code' := E_TRUNC_LABEL_VALUE) (sub := fun bs => Done (utf8_lossy bs))
                              (k := fun a y => mkLabel (l_name a) y);
      [reflexivity|exact Hlen|reflexivity|intros _; rewrite Hv; reflexivity].
  - reflexivity.
Qed.

(* the fields of an encoded series in order: one item per label, then one per sample *)
Definition series_item_enc (i : label + sample) : bytes :=
  match i with inl l => enc_delim 1 (enc_label l) | inr s => enc_delim 2 (enc_sample s) end.

Definition series_item_upd (t : series) (i : label + sample) : series :=
  match i with
  | inl l => mkSeries (ts_labels t ++ [l]) (ts_samples t)
  | inr s => mkSeries (ts_labels t) (ts_samples t ++ [s])
  end.

Lemma fold_series_items : forall ls ss acc,
  fold_left series_item_upd (map inl ls ++ map inr ss) acc
  = mkSeries (ts_labels acc ++ ls) (ts_samples acc ++ ss).
Proof.
  induction ls as [|l ls IH]; intros ss acc; cbn [map app fold_left].
  - (* the labels are through: the samples *)
    revert acc. induction ss as [|s ss IHs]; intro acc; cbn [map fold_left].
    + rewrite !app_nil_r. destruct acc; reflexivity.
    + rewrite IHs. cbn [series_item_upd ts_labels ts_samples]. rewrite <- app_assoc. reflexivity.
  - (* a label *)
    rewrite IH. cbn [series_item_upd ts_labels ts_samples]. rewrite <- app_assoc. reflexivity.
Qed.

Lemma parse_timeseries_enc : forall m t,
  wf_series t -> N.of_nat (length (enc_series t)) < I63 ->
  parse_timeseries (current m) (enc_series t) = Done t.
Proof.
  intros m [labels samples] [Hwl Hws] Hlen. cbn [ts_labels ts_samples] in *. unfold parse_timeseries.
  rewrite Forall_forall in Hwl, Hws.
  rewrite (parse_msg_items series_item_enc series_item_upd (map inl labels ++ map inr samples)).
  - f_equal. apply (fold_series_items labels samples (mkSeries [] [])).
  - intros x Hx. apply in_app_or in Hx.
    destruct Hx as [Hx|Hx]; apply in_map_iff in Hx; destruct Hx as [y [<- Hy]];
      cbn [series_item_enc series_item_upd].
    + (* a label *)
      apply consumes_delim with (code' := E_TRUNC_LABEL) (sub := parse_label (current m))
                                (k := fun a l => mkSeries (ts_labels a ++ [l]) (ts_samples a));
        [reflexivity|exact Hlen|reflexivity|].
      intro Hp. apply parse_label_enc; [apply Hwl; exact Hy|lia].
    + (* a sample *)
      apply consumes_delim with (code' := E_TRUNC_SAMPLE) (sub := parse_sample (current m))
                                (k := fun a s => mkSeries (ts_labels a) (ts_samples a ++ [s]));
        [reflexivity|exact Hlen|reflexivity|].
      intros _. apply parse_sample_enc. apply Hws. exact Hy.
  - unfold enc_series. cbn [ts_labels ts_samples]. rewrite map_app, concat_app, !map_map. reflexivity.
Qed.

(* parse_encode: the current reader inverts the canonical encoder on every
   well-formed request (valid UTF-8 labels, i64 timestamps, 64-bit values),
   whatever the number of series, labels and samples *)
Theorem parse_encode : forall (m : build) (r : request),
  wf_request r -> N.of_nat (length (enc_request r)) < I63 ->
  parse_write_request (current m) (enc_request r) = Done r.
Proof.
  intros m r Hwf Hlen. unfold parse_write_request.
  unfold wf_request in Hwf. rewrite Forall_forall in Hwf.
  rewrite (parse_msg_items (fun t => enc_delim 1 (enc_series t)) (fun acc t => acc ++ [t]) r).
  - f_equal. apply (fold_left_snoc _ r []).
  - intros t Ht.
    apply consumes_delim with (code' := E_TRUNC_TIMESERIES) (sub := parse_timeseries (current m))
                              (k := fun acc t => acc ++ [t]);
      [reflexivity|exact Hlen|reflexivity|].
    intro Hp. apply parse_timeseries_enc; [apply Hwf; exact Ht|lia].
  - reflexivity.
Qed.

(* non-vacuity: ASCII strings are well formed *)
Lemma ascii_wf : forall s, Forall (fun b => b < 128) s -> wf_string s.
Proof.
  intros s H. split.
  - eapply Forall_impl; [|exact H]. cbv beta. intros; lia.
  - induction H as [|b s Hb _ IH]; [reflexivity|].
    cbn [utf8_lossy]. destruct (N.ltb_spec b 128); [|lia]. rewrite IH. reflexivity.
Qed.
