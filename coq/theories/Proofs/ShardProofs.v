(* Proofs/ShardProofs.v — C13: shard metadata changes are fenced by generation.
   Everything about the object-store backend is a corollary of the
   linearizability of the retry machine (Proofs/CasProtoProofs.v: cas_inv,
   which cas_linearizable spells out, and what follows from it) for the
   instance Model/Shard.v, plus one instance-specific state invariant (a loser
   of a generation race is told "stale" after at most one conflict, never "too
   many retries"). *)
From Coq Require Import Sorting.Sorted.
From CS Require Import Base.Prelude Base.AList Base.CasProto Proofs.CasProtoProofs Model.Shard.
From CSGen Require Import Consts.

Notation scommit := (commit shard sop sout).

Lemma shard_decide_commit now op prev v' o :
  shard_decide now op prev = Commit v' o ->
  o = SOk /\ gen_of prev = so_expected op /\
  v' = mkShard (so_expected op + 1) (so_state op) (so_data op) /\
  (prev = None -> so_expected op = 0%N).
Proof.
  unfold shard_decide. destruct prev as [sh|]; simpl.
  - destruct (N.eqb (sh_gen sh) (so_expected op)) eqn:E; [|discriminate].
    apply N.eqb_eq in E. intros H; inversion H; subst. repeat split; try assumption. discriminate.
  - destruct (N.eqb (so_expected op) 0) eqn:E; [|discriminate].
    apply N.eqb_eq in E. intros H; inversion H; subst. rewrite E. repeat split; auto.
Qed.

Lemma shard_decide_abort now op prev o :
  shard_decide now op prev = Abort o ->
  (exists sh, prev = Some sh /\ sh_gen sh <> so_expected op /\ o = SStale (so_expected op) (sh_gen sh)) \/
  (prev = None /\ so_expected op <> 0%N /\ o = SNotFound).
Proof.
  unfold shard_decide. destruct prev as [sh|]; simpl.
  - destruct (N.eqb (sh_gen sh) (so_expected op)) eqn:E; [discriminate|].
    apply N.eqb_neq in E. intros H; inversion H; subst. left. exists sh. auto.
  - destruct (N.eqb (so_expected op) 0) eqn:E; [discriminate|].
    apply N.eqb_neq in E. intros H; inversion H; subst. right. auto.
Qed.

(* the in-memory backend performs the same decision atomically *)
Lemma local_update_decide cur op now :
  local_update cur op =
  match shard_decide now op cur with
  | Commit v' o => (Some v', o)
  | Abort o => (cur, o)
  end.
Proof.
  unfold local_update, shard_decide. destruct cur as [sh|]; simpl.
  - destruct (N.eqb (sh_gen sh) (so_expected op)); reflexivity.
  - destruct (N.eqb (so_expected op) 0) eqn:E; simpl; [|reflexivity].
    apply N.eqb_eq in E. rewrite E. reflexivity.
Qed.

Lemma local_run_seq_exec (ops : list (Z * sop)) : forall v,
  seq_exec shard_decide v ops = local_shard_run v (map snd ops).
Proof.
  induction ops as [|[n op] r IH]; intros v; [reflexivity|].
  unfold seq_exec, local_shard_run in *. simpl. rewrite IH. f_equal.
  unfold atomic. rewrite (local_update_decide v op n). destruct (shard_decide n op v); reflexivity.
Qed.

(* the ladder: commit i was based on generation g+i and wrote g+i+1 *)
Fixpoint ladder (g : N) (log : list scommit) : Prop :=
  match log with
  | [] => True
  | k :: r => so_expected (k_op k) = g /\ sh_gen (k_val k) = (g + 1)%N /\ ladder (g + 1) r
  end.

Lemma chain_ladder (log : list scommit) : forall prev,
  chain shard_decide prev log -> ladder (gen_of prev) log.
Proof.
  induction log as [|k r IH]; intros prev Hc; [exact I|].
  destruct Hc as [_ [Hd Hc]]. apply shard_decide_commit in Hd. destruct Hd as [_ [Hg [Hv _]]].
  apply IH in Hc. rewrite Hv in Hc. cbn [ladder]. rewrite Hg, Hv. exact (conj eq_refl (conj eq_refl Hc)).
Qed.

(* each expected generation is followed by the next one; N.lt is transitive *)
Lemma ladder_sorted g (log : list scommit) :
  ladder g log -> StronglySorted N.lt (map (fun k => so_expected (k_op k)) log).
Proof.
  intros H. apply Sorted_StronglySorted; [exact N.lt_trans|]. revert g H.
  induction log as [|k r IH]; intros g H; simpl; [constructor|].
  destruct H as [He [_ Hr]]. constructor; [apply (IH _ Hr)|].
  destruct r as [|k' r']; constructor. destruct Hr as [He' _]. lia.
Qed.

Lemma sorted_lt_nodup (l : list N) : StronglySorted N.lt l -> NoDup l.
Proof.
  induction 1 as [|a l Hs IH Hf]; constructor; [|exact IH].
  intros Hin. rewrite Forall_forall in Hf. specialize (Hf _ Hin). lia.
Qed.

(* generations of the versions written: g+1, g+2, ... *)
Fixpoint consecutive (g : N) (l : list N) : Prop :=
  match l with
  | [] => True
  | x :: r => x = (g + 1)%N /\ consecutive x r
  end.

Lemma ladder_consecutive g (log : list scommit) :
  ladder g log -> consecutive g (map (fun k => sh_gen (k_val k)) log).
Proof.
  revert g. induction log as [|k r IH]; intros g H; simpl; [exact I|].
  destruct H as [_ [Hv Hr]]. rewrite Hv. split; [reflexivity|]. apply IH. exact Hr.
Qed.

Section ShardRuns.
  Variable v0 : option shard.
  Variable progs : nat -> list sop.
  Variable sched : list label.

  Let s := shard_run sched (shard_init v0 progs).

  Lemma shard_inv : Inv shard_decide v0 0%Z progs s.
  Proof. exact (cas_inv shard_decide 0 shard_max_retries v0 0%Z progs sched). Qed.

  (* every successful update carries the generation it was based on (the
     version it replaced had exactly the expected generation; a creation
     expected 0), and wrote expected + 1 together with the caller's payload *)
  Theorem gen_plus_one :
    Forall (fun k =>
      gen_of (k_prev k) = so_expected (k_op k) /\
      (k_prev k = None -> so_expected (k_op k) = 0%N) /\
      k_val k = mkShard (so_expected (k_op k) + 1) (so_state (k_op k)) (so_data (k_op k)) /\
      k_out k = SOk) (s_log s).
  Proof.
    eapply proj1, (chain_Forall shard_decide (fun _ => True)); [|exact I|apply (inv_chain shard_inv)].
    intros k _ _ Hd. apply shard_decide_commit in Hd. tauto.
  Qed.

  (* the stored generation rises by exactly one with every version written *)
  Theorem stored_generation_monotone :
    consecutive (gen_of v0) (map (fun k => sh_gen (k_val k)) (s_log s)).
  Proof. apply ladder_consecutive, chain_ladder, (inv_chain shard_inv). Qed.

  (* of all updates based on the same generation at most one succeeds: the
     expected generations of the successful updates are strictly increasing
     in commit order, hence pairwise different *)
  Theorem at_most_one_winner_per_generation :
    StronglySorted N.lt (map (fun k => so_expected (k_op k)) (s_log s)) /\
    NoDup (map (fun k => so_expected (k_op k)) (s_log s)).
  Proof.
    pose proof (ladder_sorted _ _ (chain_ladder _ _ (inv_chain shard_inv))) as Hs.
    split; [exact Hs|apply sorted_lt_nodup; exact Hs].
  Qed.

  (* creating a shard succeeds for at most one creator: only the first commit
     can be a creation, and only when the shard did not exist *)
  Theorem single_creator :
    match s_log s with
    | [] => True
    | k :: r => k_prev k = v0 /\ Forall (fun k' => k_prev k' <> None) r
    end.
  Proof. exact (cas_create_once shard_decide 0 shard_max_retries v0 0%Z progs sched). Qed.

  (* a successful update of a client is in the log exactly once (with Ok); an
     update that returned an error or TooManyRetries wrote nothing *)
  Theorem successes_are_the_commits c :
    map op_out (by_client c (s_log s)) = successes (c_done (s_cl s c)) /\
    length (by_client c (s_log s)) = length (successes (c_done (s_cl s c))).
  Proof. exact (cas_successes_are_commits shard_decide 0 shard_max_retries v0 0%Z progs sched c). Qed.

  (* a rejected update was told the truth: StaleGeneration carries its own
     expected generation and a different generation that really was stored;
     ShardNotFound only if the shard did not exist and expected <> 0 *)
  Theorem rejected_as_stale c op o :
    In (op, FAbort o) (c_done (s_cl s c)) ->
    (exists sh, hist v0 (s_log s) (Some sh) /\ sh_gen sh <> so_expected op /\
                o = SStale (so_expected op) (sh_gen sh)) \/
    (v0 = None /\ so_expected op <> 0%N /\ o = SNotFound).
  Proof.
    intros Hin. destruct (ci_abort (inv_cl shard_inv c) _ _ Hin) as [now [prev [Hh Hd]]].
    apply shard_decide_abort in Hd. destruct Hd as [[sh [Hp [Hne Ho]]]|[Hp [Hne Ho]]].
    - left. exists sh. subst prev. auto.
    - right. subst prev. split; [|auto]. destruct Hh as [Hh|[k [_ Hk]]]; [symmetry; exact Hh|discriminate].
  Qed.

  (* what is stored now is the last version written; replaying the successful
     updates one at a time, in commit order, on the in-memory backend gives
     the same shard *)
  Theorem shard_sequential :
    cur_val s = local_shard_run v0 (map (fun k => k_op k) (s_log s)).
  Proof.
    pose proof (cas_sequential shard_decide 0 shard_max_retries v0 0%Z progs sched) as H.
    fold shard_run in H. fold (shard_init v0 progs) in H. fold s in H.
    rewrite H. rewrite local_run_seq_exec. unfold log_ops. rewrite map_map. reflexivity.
  Qed.
End ShardRuns.

(* the stored generation is beyond the one [op] expects: [op] can only be rejected *)
Definition stale (op : sop) (cur : option (obj shard)) : Prop :=
  (so_expected op < gen_of (option_map o_val cur))%N.

(* a client about to PUT is at its first attempt; its PUT will go through, or
   the stored generation has moved on.  A load is a single GET here, so no
   client is ever found Loading *)
Definition shard_pc_ok (cur : option (obj shard)) (p : pc shard sop sout) : Prop :=
  match p with
  | Idle => True
  | Loading _ _ _ => False
  | Backoff op att => stale op cur
  | AfterLoad op att snap dnow v' o => att = O /\ (put_ok snap cur = true \/ stale op cur)
  end.

Definition no_retries (d : list (sop * fin sout)) : Prop := forall op, ~ In (op, FRetries) d.

Definition client_ok (cur : option (obj shard)) (cl : client shard sop sout) : Prop :=
  shard_pc_ok cur (c_pc cl) /\ no_retries (c_done cl).

Definition shard_state_ok (s : sys shard sop sout) : Prop := forall c, client_ok (s_cur s) (s_cl s c).

Lemma no_retries_app d op r : no_retries d -> r <> FRetries -> no_retries (d ++ [(op, r)]).
Proof.
  intros H Hr op' Hin. apply in_app_or in Hin. destruct Hin as [Hin|[Heq|[]]].
  - exact (H _ Hin).
  - inversion Heq; subst. apply Hr; reflexivity.
Qed.

Lemma state_set_client (s : sys shard sop sout) c x :
  shard_state_ok s -> client_ok (s_cur s) x -> shard_state_ok (set_client s c x).
Proof. intros HP Hx c'. simpl. unfold upd. destruct (Nat.eqb c' c); [exact Hx|apply HP]. Qed.

(* a load at the first attempt, or of a stale writer: a stale writer aborts *)
Lemma shard_decided_ok (s : sys shard sop sout) cl todo op att :
  no_retries (c_done cl) -> att = O \/ stale op (s_cur s) ->
  client_ok (s_cur s) (decided shard_decide s cl todo op att (s_cur s)).
Proof.
  intros Hnr Hatt. unfold decided, client_ok.
  destruct (shard_decide (s_now s) op (option_map o_val (s_cur s))) as [v' o|o] eqn:Hd; simpl.
  - split; [|exact Hnr]. split; [|left; destruct (s_cur s); [apply N.eqb_refl|reflexivity]].
    apply shard_decide_commit in Hd. destruct Hd as [_ [Hg _]].
    destruct Hatt as [Ha|Hlt]; [exact Ha|]. unfold stale in Hlt. lia.
  - split; [exact I|]. apply no_retries_app; [exact Hnr|discriminate].
Qed.

Lemma put_ok_gen {v0 now0 cur fr now log op att snap dnow v' o} :
  pc_ok shard_decide v0 now0 cur fr now log (AfterLoad op att snap dnow v' o) -> put_ok snap cur = true ->
  gen_of (option_map o_val cur) = so_expected op /\ sh_gen v' = (so_expected op + 1)%N.
Proof.
  intros Hpk Hput. rewrite <- (put_ok_same_val shard_decide v0 now0 Hpk Hput).
  destruct Hpk as [Hd _]. apply shard_decide_commit in Hd. destruct Hd as [_ [Hg [-> _]]].
  split; [exact Hg|reflexivity].
Qed.

(* a successful PUT raises the stored generation: every other writer parked
   before its PUT, or backing off, is stale from then on *)
Lemma shard_pc_ok_commit {v0 now0 cur fr now log fresh v' p} :
  pc_ok shard_decide v0 now0 cur fr now log p -> shard_pc_ok cur p ->
  (gen_of (option_map o_val cur) < sh_gen v')%N ->
  shard_pc_ok (Some (mkObj fresh v')) p.
Proof.
  intros Hpk Hp Hlt. destruct p as [|op att k|op att snap dnow w o|op att]; cbn [shard_pc_ok] in *.
  - (* Idle *) exact I.
  - (* Loading *) exact Hp.
  - (* AfterLoad *)
    destruct Hp as [Ha Hrel]. split; [exact Ha|]. right. unfold stale in *. simpl.
    destruct Hrel as [Hput|Hst]; [|lia].
    destruct (put_ok_gen Hpk Hput) as [<- _]. exact Hlt.
  - (* Backoff *)
    unfold stale in *. simpl. lia.
Qed.

Lemma shard_state_step v0 now0 progs :
  (2 <= shard_max_retries)%nat ->
  forall s l,
    Inv shard_decide v0 now0 progs s -> shard_state_ok s -> shard_state_ok (shard_step s l).
Proof.
  intros Hmax s l HI HP. destruct l as [c|d]; [|exact HP].
  unfold shard_step, step. destruct (HP c) as [Hpc Hnr].
  pose proof (ci_pc (inv_cl HI c)) as Hpk.
  destruct (c_pc (s_cl s c)) as [|op att k|op att snap dnow v' o|op att] eqn:Epc.
  - (* Idle *)
    destruct (c_todo (s_cl s c)) as [|op rest]; [exact HP|].
    apply state_set_client; [exact HP|]. rewrite do_get_single.
    apply shard_decided_ok; [exact Hnr|left; reflexivity].
  - (* Loading: unreachable with one GET per load *)
    contradiction.
  - (* AfterLoad *)
    destruct Hpc as [Hatt Hrel].
    destruct (put_ok snap (s_cur s)) eqn:Hput.
    + assert (Hlt : (gen_of (option_map o_val (s_cur s)) < sh_gen v')%N)
        by (destruct (put_ok_gen Hpk Hput) as [-> ->]; lia).
      intros c'. simpl. unfold upd. destruct (Nat.eqb c' c).
      * split; [exact I|]. apply no_retries_app; [exact Hnr|discriminate].
      * destruct (HP c') as [Hpc' Hnr']. split; [|exact Hnr'].
        exact (shard_pc_ok_commit (ci_pc (inv_cl HI c')) Hpc' Hlt).
    + (* conflict: the writer is stale, and at its first attempt may go on *)
      destruct Hrel as [Hrel|Hst]; [discriminate|].
      assert (Hnext : Nat.leb shard_max_retries (S att) = false) by (subst att; apply Nat.leb_gt; lia).
      rewrite Hnext. apply state_set_client; [exact HP|]. split; [exact Hst|exact Hnr].
  - (* Backoff: the reload finds the newer generation and aborts with Stale *)
    apply state_set_client; [exact HP|]. rewrite do_get_single.
    apply shard_decided_ok; [exact Hnr|right; exact Hpc].
Qed.

Lemma shard_max_retries_ge2 : (2 <= shard_max_retries)%nat.
Proof. unfold shard_max_retries. apply Nat.leb_le. vm_compute. reflexivity. Qed.

(* no update of shard metadata ever ends in TooManyRetries: a writer that
   loses a race reloads, sees a generation beyond the one it expected and is
   rejected as stale (needs MAX_CAS_RETRIES >= 2, checked against the code's
   constant) *)
Theorem never_too_many_retries v0 progs sched c op :
  ~ In (op, FRetries) (c_done (s_cl (shard_run sched (shard_init v0 progs)) c)).
Proof.
  assert (H : shard_state_ok (shard_run sched (shard_init v0 progs))).
  { unfold shard_run, shard_init.
    apply (run_invariant shard_decide 0 shard_max_retries v0 0%Z progs shard_state_ok).
    - intros c'. split; [exact I|intros op' []].
    - intros s l HI HP. apply (shard_state_step v0 0%Z progs shard_max_retries_ge2 s l HI HP). }
  destruct (H c) as [_ Hnr]. apply Hnr.
Qed.

Lemma Neqb_spec' a b : N.eqb a b = true <-> a = b.
Proof. exact (Neqb_spec a b). Qed.

(* update_routing keeps, for the updated shard, the larger of the cached and
   the offered generation, and touches no other entry *)
Lemma router_gen_update c id gen data id' :
  router_gen (router_update c id gen data) id' =
  if N.eqb id' id
  then Some (match router_gen c id with Some g => N.max g gen | None => gen end)
  else router_gen c id'.
Proof.
  unfold router_gen, router_update.
  destruct (N.eqb_spec id' id) as [->|Hne].
  - (* the updated shard *)
    destruct (aget N.eqb id c) as [[g d]|] eqn:E; [destruct (N.ltb_spec gen g)|].
    + (* an older generation is offered: the cache stays *) rewrite E. simpl. f_equal. lia.
    + rewrite (aget_aset_same N.eqb Neqb_spec). simpl. f_equal. lia.
    + rewrite (aget_aset_same N.eqb Neqb_spec). reflexivity.
  - (* another shard: whichever branch is taken, its entry is not touched *)
    destruct (aget N.eqb id c) as [[g d]|]; [destruct (N.ltb gen g)|];
      rewrite ?(aget_aset_other N.eqb Neqb_spec) by exact Hne; reflexivity.
Qed.

(* update_routing never lowers the cached generation of any shard, never
   drops an entry, and afterwards the cached generation of the updated shard
   is at least the offered one *)
Theorem router_never_downgrades c id gen data id' :
  match router_gen c id', router_gen (router_update c id gen data) id' with
  | Some g, Some g' => (g <= g')%N
  | Some _, None => False
  | None, _ => True
  end /\
  match router_gen (router_update c id gen data) id with
  | Some g' => (gen <= g')%N
  | None => False
  end.
Proof.
  rewrite !router_gen_update, N.eqb_refl. split.
  - destruct (N.eqb_spec id' id) as [->|_]; destruct (router_gen c _); try lia; exact I.
  - destruct (router_gen c id); lia.
Qed.

(* over any history of update_routing calls the cached generation of every
   shard is monotone (invalidations, which drop entries, are not part of
   these histories) *)
Theorem router_monotone_history (h : list (N * N * N)) : forall c id',
  match router_gen c id',
        router_gen (fold_left (fun c x => router_update c (fst (fst x)) (snd (fst x)) (snd x)) h c) id' with
  | Some g, Some g' => (g <= g')%N
  | Some _, None => False
  | None, _ => True
  end.
Proof.
  induction h as [|[[id gen] data] r IH]; intros c id'; simpl.
  - destruct (router_gen c id'); [lia|exact I].
  - specialize (IH (router_update c id gen data) id').
    destruct (router_never_downgrades c id gen data id') as [H _].
    destruct (router_gen c id') as [g|]; [|exact I].
    destruct (router_gen (router_update c id gen data) id') as [g1|]; [|contradiction].
    destruct (router_gen _ id') as [g2|]; [lia|contradiction].
Qed.

(* two creators race (GET, GET, PUT, PUT), the loser reloads and is told
   "stale 0 -> 1"; then an update based on generation 1 succeeds *)
Example c13_race_example :
  let progs := fun c => match c with
                        | O => [mkSop 0 0 10; mkSop 1 1 11]
                        | S O => [mkSop 0 0 20]
                        | _ => [] end in
  let s := shard_run [Req 0; Req 1; Req 0; Req 1; Req 1; Req 0; Req 0] (shard_init None progs) in
  map (fun k => (k_client k, k_val k)) (s_log s) = [(O, mkShard 1 0 10); (O, mkShard 2 1 11)] /\
  c_done (s_cl s 1) = [(mkSop 0 0 20, FAbort (SStale 0 1))] /\
  cur_val s = Some (mkShard 2 1 11).
Proof. vm_compute. repeat split. Qed.
