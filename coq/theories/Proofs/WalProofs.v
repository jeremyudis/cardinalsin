(* Proofs/WalProofs.v — the write-ahead log (C05).  A directory written by this
   code is the rendering (render_all) of lists of complete entries, plus at
   most one cut write at the end of the newest file; parse undoes the rendering
   whatever the cut, so each operation of Model/Wal.v is computed on the lists
   (the _shape lemmas).  The history invariant Inv says this of the disk, and of
   the lists (log_ok) that they are what was written completely minus a prefix
   below the truncation bound, ascending, and below the handle's next number,
   as is the flushed mark. *)
From CS Require Import Base.Prelude Base.AList Base.ListFacts Model.Wal.
From CSGen Require Import Consts.
Open Scope N_scope.

(* "A is C without its first n elements, which all satisfy P", with the
   removed elements as a list *)
Lemma dropped_iff {T} (P : T -> Prop) (A C : list T) :
  (exists n, (n <= length C)%nat /\ A = skipn n C /\ Forall P (firstn n C)) <->
  (exists D, C = D ++ A /\ Forall P D).
Proof.
  split.
  - intros (n & _ & -> & HP). exists (firstn n C). split; [symmetry; apply firstn_skipn | exact HP].
  - intros (D & -> & HP). exists (length D).
    rewrite app_length, skipn_len_app, firstn_len_app by reflexivity.
    split; [lia|]. split; [reflexivity | exact HP].
Qed.

Lemma lenN_app {A} (a b : list A) : lenN (a ++ b) = lenN a + lenN b.
Proof. unfold lenN. rewrite app_length. lia. Qed.

Lemma to_nat_lenN {A} (l : list A) : N.to_nat (lenN l) = length l.
Proof. unfold lenN. apply Nat2N.id. Qed.

Lemma le_bytes_length n x : length (le_bytes n x) = n.
Proof. revert x. induction n as [|n IH]; intros x; cbn [le_bytes length]; [reflexivity|]. now rewrite IH. Qed.

Lemma le_val_le_bytes n x : le_val (le_bytes n x) = x mod 256 ^ N.of_nat n.
Proof.
  revert x. induction n as [|n IH]; intros x.
  - cbn [le_bytes le_val]. change (N.of_nat 0) with 0. rewrite N.pow_0_r, N.mod_1_r. reflexivity.
  - cbn [le_bytes le_val]. rewrite IH, Nat2N.inj_succ, N.pow_succ_r'.
    rewrite N.mod_mul_r by (try apply N.pow_nonzero; discriminate). reflexivity.
Qed.

Lemma le_val_le_bytes_small n x : x < 256 ^ N.of_nat n -> le_val (le_bytes n x) = x.
Proof. intros H. rewrite le_val_le_bytes. now apply N.mod_small. Qed.

Lemma le_bytes_bytes n x : Forall (fun b => b < 256) (le_bytes n x).
Proof.
  revert x. induction n as [|n IH]; intros x; cbn [le_bytes]; constructor; [|apply IH].
  apply N.mod_lt. discriminate.
Qed.

Definition fits32 (x : N) : Prop := N.shiftr x 32 = 0.

Lemma fits32_lt x : fits32 x <-> x < U32_LIMIT.
Proof.
  unfold fits32. rewrite N.shiftr_div_pow2. change (2 ^ 32) with U32_LIMIT.
  apply N.div_small_iff. discriminate.
Qed.

Lemma fits32_div2 c : fits32 c -> fits32 (N.div2 c).
Proof.
  unfold fits32. intros H. rewrite N.div2_spec, N.shiftr_shiftr, N.add_comm, <- N.shiftr_shiftr, H.
  reflexivity.
Qed.

Lemma fits32_lxor a b : fits32 a -> fits32 b -> fits32 (N.lxor a b).
Proof. unfold fits32. intros Ha Hb. rewrite N.shiftr_lxor, Ha, Hb. reflexivity. Qed.

Lemma fits32_crc_bit c : fits32 c -> fits32 (crc_bit c).
Proof.
  intros H. unfold crc_bit. destruct (N.odd c).
  - apply fits32_lxor; [now apply fits32_div2 | reflexivity].
  - now apply fits32_div2.
Qed.

Lemma fits32_crc_byte c b : fits32 c -> b < 256 -> fits32 (crc_byte c b).
Proof.
  intros Hc Hb. unfold crc_byte.
  do 8 apply fits32_crc_bit. apply fits32_lxor; [assumption|].
  apply fits32_lt. unfold U32_LIMIT. lia.
Qed.

Lemma crc32_lt pl : Forall (fun b => b < 256) pl -> crc32 pl < U32_LIMIT.
Proof.
  intros H. apply fits32_lt. unfold crc32. apply fits32_lxor; [|reflexivity].
  apply (fold_left_inv fits32); [|reflexivity].
  intros c b Hb Hc. apply fits32_crc_byte; [exact Hc|]. exact (proj1 (Forall_forall _ _) H b Hb).
Qed.

(* the standard check value of CRC-32/IEEE: crc32("123456789") = 0xCBF43926 *)
Example crc32_check : crc32 [49;50;51;52;53;54;55;56;57] = 3421780262.
Proof. vm_compute. reflexivity. Qed.

Definition entry_ok (e : entry) : Prop :=
  e_seq e < U64_LIMIT /\ e_flags e = 0 /\ lenN (e_payload e) < U32_LIMIT /\
  Forall (fun b => b < 256) (e_payload e).

Lemma slice_app (a b : N) (p m s : bytes) :
  length p = N.to_nat a -> length m = N.to_nat (b - a) -> slice a b (p ++ m ++ s) = m.
Proof.
  intros Hp Hm. unfold slice. rewrite skipn_len_app by assumption. now apply firstn_len_app.
Qed.

Lemma slice_app_end (a b : N) (p m : bytes) :
  length p = N.to_nat a -> length m = N.to_nat (b - a) -> slice a b (p ++ m) = m.
Proof. intros Hp Hm. pose proof (slice_app a b p m [] Hp Hm) as H. now rewrite app_nil_r in H. Qed.

Lemma encode_header_length seq flags pl : length (encode_header seq flags pl) = N.to_nat WAL_HEADER_LEN.
Proof. unfold encode_header. rewrite !app_length, !le_bytes_length. reflexivity. Qed.

Lemma bytes_eqb_refl a : bytes_eqb a a = true.
Proof. induction a as [|x a IH]; cbn [bytes_eqb]; [reflexivity|]. now rewrite N.eqb_refl, IH. Qed.

Definition wal_layout_agrees : Prop :=
  WAL_MAGIC_LEN = WAL_ENC_MAGIC_HI /\ WAL_ENC_MAGIC_HI = WAL_DEC_MAGIC_HI /\
  WAL_ENC_VERSION_AT = WAL_DEC_VERSION_AT /\ WAL_ENC_FLAGS_AT = WAL_DEC_FLAGS_AT /\
  WAL_ENC_SEQ_LO = WAL_DEC_SEQ_LO /\ WAL_ENC_SEQ_HI = WAL_DEC_SEQ_HI /\
  WAL_ENC_LEN_LO = WAL_DEC_LEN_LO /\ WAL_ENC_LEN_HI = WAL_DEC_LEN_HI /\
  WAL_ENC_CRC_LO = WAL_DEC_CRC_LO /\ WAL_ENC_CRC_HI = WAL_DEC_CRC_HI /\
  WAL_ENC_CRC_HI = WAL_HEADER_LEN /\
  (* the model's encoder puts the fields where encode_header does *)
  (forall seq flags pl,
     slice 0 WAL_ENC_MAGIC_HI (encode_header seq flags pl) = MAGIC /\
     nth (N.to_nat WAL_ENC_VERSION_AT) (encode_header seq flags pl) 0 = WAL_VERSION /\
     nth (N.to_nat WAL_ENC_FLAGS_AT) (encode_header seq flags pl) 0 = flags mod 256 /\
     slice WAL_ENC_SEQ_LO WAL_ENC_SEQ_HI (encode_header seq flags pl) = le_bytes 8 seq /\
     slice WAL_ENC_LEN_LO WAL_ENC_LEN_HI (encode_header seq flags pl) = le_bytes 4 (lenN pl) /\
     slice WAL_ENC_CRC_LO WAL_ENC_CRC_HI (encode_header seq flags pl) = le_bytes 4 (crc32 pl)).

(* encoder and decoder layouts read from the source agree *)
Theorem wal_layout_agrees_holds : wal_layout_agrees.
Proof.
  unfold wal_layout_agrees. do 11 (split; [reflexivity|]).
  intros seq flags pl. unfold encode_header. do 3 (split; [reflexivity|]).
  (* the three fixed-size fields in front, as one prefix *)
  rewrite 2 app_assoc.
  split; [apply slice_app; [reflexivity | now rewrite le_bytes_length]|].
  rewrite app_assoc.
  split; [apply slice_app; [rewrite app_length, le_bytes_length; reflexivity | now rewrite le_bytes_length]|].
  rewrite app_assoc.
  apply slice_app_end; [rewrite !app_length, !le_bytes_length; reflexivity | now rewrite le_bytes_length].
Qed.

(* decode_header inverts encode_header: the decoder reads each field at the
   offset where the encoder put it *)
Lemma header_roundtrip_gen seq flags pl :
  flags < 256 -> N.land flags WAL_FLAG_COMPRESSED = 0 ->
  decode_header (encode_header seq flags pl) =
  Some (seq mod U64_LIMIT, flags, lenN pl mod U32_LIMIT, crc32 pl mod U32_LIMIT).
Proof.
  intros Hf Hc.
  (* the first and the eleventh clause are about WAL_MAGIC_LEN and
     WAL_HEADER_LEN, which decode_header does not mention *)
  destruct wal_layout_agrees_holds as (_ & Emagic & Ever & Eflags & Eseq & Eseq' & Elen & Elen' & Ecrc & Ecrc' & _ & Hfields).
  destruct (Hfields seq flags pl) as (Hm & Hv & Hfl & Hs & Hl & Hcr).
  rewrite Emagic in Hm. rewrite Ever in Hv. rewrite Eflags in Hfl. rewrite Eseq, Eseq' in Hs.
  rewrite Elen, Elen' in Hl. rewrite Ecrc, Ecrc' in Hcr. unfold decode_header.
  rewrite Hm, Hv, Hfl, Hs, Hl, Hcr, (N.mod_small flags 256 Hf), bytes_eqb_refl, N.eqb_refl, Hc, !le_val_le_bytes.
  reflexivity.
Qed.

Lemma header_roundtrip e : entry_ok e ->
  decode_header (encode_header (e_seq e) (e_flags e) (e_payload e)) =
  Some (e_seq e, e_flags e, lenN (e_payload e), crc32 (e_payload e)).
Proof.
  intros (Hs & Hf & Hl & Hb). rewrite header_roundtrip_gen by (rewrite Hf; reflexivity).
  rewrite !N.mod_small; [reflexivity | now apply crc32_lt | assumption | assumption].
Qed.

Lemma enc_entry_length e : length (enc_entry e) = (N.to_nat WAL_HEADER_LEN + length (e_payload e))%nat.
Proof. unfold enc_entry. now rewrite app_length, encode_header_length. Qed.

Lemma header_len_pos : (0 < N.to_nat WAL_HEADER_LEN)%nat.
Proof. vm_compute. lia. Qed.

Lemma ltb_lenN_false {A} (l : list A) (n : N) : (N.to_nat n <= length l)%nat -> (lenN l <? n) = false.
Proof. intros H. apply N.ltb_ge. unfold lenN. lia. Qed.

Lemma ltb_lenN_true {A} (l : list A) (n : N) : (length l < N.to_nat n)%nat -> (lenN l <? n) = true.
Proof. intros H. apply N.ltb_lt. unfold lenN. lia. Qed.

(* every round of the loop consumes a header, so any fuel above the length
   of the input gives the same result *)
Lemma parse_fuel_enough : forall f1 f2 bs, (length bs < f1)%nat -> (length bs < f2)%nat ->
  parse_fuel f1 bs = parse_fuel f2 bs.
Proof.
  induction f1 as [|f1 IH]; intros f2 bs H1 H2; [lia|].
  destruct f2 as [|f2]; [lia|]. cbn [parse_fuel].
  destruct (lenN bs <? WAL_HEADER_LEN) eqn:Hlen; [reflexivity|].
  destruct (decode_header _) as [[[[seq flags] len] crc]|]; [|reflexivity].
  destruct (lenN (skipn _ bs) <? len); [reflexivity|].
  destruct (crc32 _ =? crc); [|reflexivity].
  f_equal. apply N.ltb_ge in Hlen. unfold lenN in Hlen. pose proof header_len_pos.
  apply IH; rewrite !skipn_length; lia.
Qed.

Lemma parse_fuel_parse f bs : (length bs < f)%nat -> parse_fuel f bs = parse bs.
Proof. intros H. apply parse_fuel_enough; lia. Qed.

(* one round of the loop on the header of [e] followed by any bytes: the
   payload is short, or it is taken with its CRC compared *)
Lemma parse_header e rest : entry_ok e ->
  parse (encode_header (e_seq e) (e_flags e) (e_payload e) ++ rest) =
  if lenN rest <? lenN (e_payload e) then []
  else if crc32 (firstn (length (e_payload e)) rest) =? crc32 (e_payload e)
       then mkEntry (e_seq e) (e_flags e) (firstn (length (e_payload e)) rest) ::
            parse (skipn (length (e_payload e)) rest)
       else [].
Proof.
  intros Hok. unfold parse at 1. cbn [parse_fuel].
  rewrite ltb_lenN_false by (rewrite app_length, encode_header_length; lia).
  rewrite firstn_len_app, skipn_len_app by apply encode_header_length.
  rewrite header_roundtrip, to_nat_lenN by assumption.
  destruct (lenN rest <? _); [reflexivity|]. destruct (_ =? _); [|reflexivity].
  f_equal. apply parse_fuel_parse.
  rewrite skipn_length, app_length, encode_header_length. pose proof header_len_pos. lia.
Qed.

Theorem parse_app_enc e rest : entry_ok e -> parse (enc_entry e ++ rest) = e :: parse rest.
Proof.
  intros Hok. unfold enc_entry. rewrite <- app_assoc, parse_header by assumption.
  rewrite ltb_lenN_false by (rewrite to_nat_lenN, app_length; lia).
  rewrite firstn_len_app, skipn_len_app by reflexivity.
  rewrite N.eqb_refl. now destruct e.
Qed.

(* a proper prefix of one encoded entry yields nothing: either the header is
   short, or the header is complete and the payload is short.  The CRC is not
   consulted. *)
Lemma parse_short e k : entry_ok e -> (k < length (enc_entry e))%nat -> parse (firstn k (enc_entry e)) = [].
Proof.
  intros Hok Hk. rewrite enc_entry_length in Hk.
  destruct (Nat.lt_ge_cases k (N.to_nat WAL_HEADER_LEN)) as [Hshort | Hlong].
  - unfold parse. cbn [parse_fuel]. rewrite ltb_lenN_true; [reflexivity|]. rewrite firstn_length. lia.
  - unfold enc_entry. rewrite firstn_app, encode_header_length.
    rewrite firstn_all2 by (rewrite encode_header_length; assumption).
    rewrite parse_header by assumption.
    rewrite ltb_lenN_true; [reflexivity|]. rewrite firstn_length, to_nat_lenN. lia.
Qed.

Lemma enc_entries_app a b : enc_entries (a ++ b) = enc_entries a ++ enc_entries b.
Proof. unfold enc_entries. apply flat_map_app. Qed.

Lemma enc_entries_cons e es : enc_entries (e :: es) = enc_entry e ++ enc_entries es.
Proof. reflexivity. Qed.

Lemma parse_prefix es tail : Forall entry_ok es -> parse (enc_entries es ++ tail) = es ++ parse tail.
Proof.
  induction 1 as [|e es He _ IH]; [reflexivity|].
  rewrite enc_entries_cons, <- app_assoc, parse_app_enc, IH by assumption. reflexivity.
Qed.

(* all complete entries, in order, each once *)
Theorem parse_concat_encode es : Forall entry_ok es -> parse (enc_entries es) = es.
Proof.
  intros Hok. rewrite <- (app_nil_r (enc_entries es)), parse_prefix by assumption. apply app_nil_r.
Qed.

(* the write of [e] cut at ANY byte offset k: exactly the entries before it *)
Theorem parse_torn_prefix es e k : Forall entry_ok es -> entry_ok e ->
  (k < length (enc_entry e))%nat ->
  parse (enc_entries es ++ firstn k (enc_entry e)) = es.
Proof. intros Hok He Hk. rewrite parse_prefix, parse_short by assumption. apply app_nil_r. Qed.

Lemma valid_len_acc es : forall acc, fold_left (fun a e => a + entry_size e) es acc = acc + lenN (enc_entries es).
Proof.
  induction es as [|e es IH]; intros acc; cbn [fold_left].
  - unfold lenN. cbn. lia.
  - rewrite IH, enc_entries_cons, lenN_app.
    unfold entry_size, lenN. rewrite enc_entry_length. lia.
Qed.

(* what open computes from the parsed entries is the length of the clean part *)
Lemma valid_len_enc es : valid_len es = lenN (enc_entries es).
Proof. unfold valid_len. now rewrite valid_len_acc. Qed.

Lemma last_seq_app a b :
  last_seq (a ++ b) = match last_seq b with Some s => Some s | None => last_seq a end.
Proof.
  induction a as [|e a IH]; cbn [app last_seq].
  - destruct (last_seq b); reflexivity.
  - rewrite IH. destruct (last_seq b); reflexivity.
Qed.

Lemma last_seq_snoc l e : last_seq (l ++ [e]) = Some (e_seq e).
Proof. rewrite last_seq_app. reflexivity. Qed.

Lemma last_seq_none l : last_seq l = None -> l = [].
Proof. destruct l as [|e l]; [reflexivity|]. cbn [last_seq]. destruct (last_seq l); discriminate. Qed.

Lemma last_seq_some l t : last_seq l = Some t -> exists l' e, l = l' ++ [e] /\ e_seq e = t.
Proof.
  intros H. destruct l as [|a l]; [discriminate|].
  destruct (exists_last (l := a :: l)) as (l' & e & E); [discriminate|].
  rewrite E, last_seq_snoc in H. exists l', e. split; [exact E | congruence].
Qed.

Fixpoint asc (l : list N) : Prop :=
  match l with
  | [] => True
  | x :: r => Forall (fun y => x < y) r /\ asc r
  end.

Lemma asc_app a b :
  asc (a ++ b) <-> asc a /\ asc b /\ Forall (fun x => Forall (fun y => x < y) b) a.
Proof.
  induction a as [|x a IH]; cbn [app asc].
  - rewrite Forall_nil_iff. tauto.
  - rewrite IH, Forall_app, Forall_cons_iff.
    split; [intros ((H1 & H2) & H3 & H4 & H5) | intros ((H1 & H3) & H4 & H2 & H5)]; repeat split; assumption.
Qed.

Definition seqs (l : list entry) : list N := map e_seq l.

Lemma seqs_app a b : seqs (a ++ b) = seqs a ++ seqs b.
Proof. apply map_app. Qed.

Lemma asc_app_lt {l r} : asc (seqs (l ++ r)) ->
  Forall (fun x => Forall (fun y => e_seq x < e_seq y) r) l.
Proof.
  rewrite seqs_app, asc_app. intros (_ & _ & H). unfold seqs in H. rewrite Forall_map in H.
  eapply Forall_impl; [|exact H]. intros x Hx. now rewrite Forall_map in Hx.
Qed.

Lemma asc_le_last {l t} : asc (seqs l) -> last_seq l = Some t -> Forall (fun e => e_seq e <= t) l.
Proof.
  intros Ha Hl. destruct (last_seq_some l t Hl) as (l' & e & -> & <-).
  apply Forall_snoc; [|lia]. eapply Forall_impl; [|exact (asc_app_lt Ha)].
  intros x Hx. inversion Hx; subst. lia.
Qed.

Lemma asc_snoc l e : asc (seqs l) -> Forall (fun x => e_seq x < e_seq e) l -> asc (seqs (l ++ [e])).
Proof.
  intros Ha Hlt. rewrite seqs_app. apply asc_app. repeat split; [assumption | cbn; auto |].
  unfold seqs. rewrite Forall_map. eapply Forall_impl; [|exact Hlt].
  intros a Ha'. cbn. constructor; [assumption|constructor].
Qed.

Definition below (id : N) (l : segs) : Prop := Forall (fun p => fst p < id) l.

Lemma below_mono id id' l : below id l -> id <= id' -> below id' l.
Proof. intros H Hle. revert H. apply Forall_impl. intros p Hp. lia. Qed.

(* files with smaller ids stand in front and are passed over *)
Lemma seg_get_app id l r : below id l -> seg_get id (l ++ r) = seg_get id r.
Proof.
  intros H. apply (aget_app_notin N.eqb Neqb_spec). intros Hin.
  apply in_map_iff in Hin. destruct Hin as (p & <- & Hp).
  unfold below in H. rewrite Forall_forall in H. specialize (H p Hp). lia.
Qed.

Lemma seg_put_app id b l r : below id l -> seg_put id b (l ++ r) = l ++ seg_put id b r.
Proof.
  induction 1 as [|[i x] l Hi _ IH]; cbn [app seg_put]; [reflexivity|]. cbn [fst] in Hi.
  rewrite (proj2 (N.ltb_ge id i)), (proj2 (N.eqb_neq id i)), IH by lia. reflexivity.
Qed.

Lemma seg_get_last id b l : below id l -> seg_get id (l ++ [(id, b)]) = Some b.
Proof. intros H. rewrite seg_get_app by assumption. cbn. now rewrite N.eqb_refl. Qed.

Lemma seg_put_last id b b' l : below id l -> seg_put id b' (l ++ [(id, b)]) = l ++ [(id, b')].
Proof. intros H. rewrite seg_put_app by assumption. cbn. now rewrite N.ltb_irrefl, N.eqb_refl. Qed.

Lemma last_id_snoc l p : last_id (l ++ [p]) = Some (fst p).
Proof.
  induction l as [|q l IH]; cbn [app last_id]; [reflexivity|]. now rewrite IH.
Qed.

(* the shape of a directory written by this code: older segments (gseg: id
   and entries) hold complete entries only; the newest one may end in the
   prefix [tail] of an entry whose write was cut *)
Definition gseg := (N * list entry)%type.
Definition render (g : gseg) : N * bytes := (fst g, enc_entries (snd g)).

Definition render_all (pre : list gseg) (id : N) (es : list entry) (tail : bytes) : segs :=
  map render pre ++ [(id, enc_entries es ++ tail)].

Definition all_entries (pre : list gseg) (es : list entry) : list entry := flat_map snd pre ++ es.

(* [] counts as torn (k = 0): nothing partial at the end *)
Definition torn (tail : bytes) : Prop :=
  exists e k, entry_ok e /\ (k < length (enc_entry e))%nat /\ tail = firstn k (enc_entry e).

Lemma torn_nil : torn [].
Proof.
  exists (mkEntry 0 0 []), 0%nat. split; [|split; [|reflexivity]].
  - repeat split; try reflexivity. constructor.
  - rewrite enc_entry_length. pose proof header_len_pos. lia.
Qed.

Lemma parse_torn es tail : Forall entry_ok es -> torn tail -> parse (enc_entries es ++ tail) = es.
Proof. intros Hok (e & k & He & Hk & ->). now apply parse_torn_prefix. Qed.

Lemma below_render id pre : Forall (fun g : gseg => fst g < id) pre -> below id (map render pre).
Proof. intros H. apply Forall_map. exact H. Qed.

Lemma flat_map_parse_render pre : Forall entry_ok (flat_map snd pre) ->
  flat_map (fun p : N * bytes => parse (snd p)) (map render pre) = flat_map snd pre.
Proof.
  intros Hok. rewrite flat_map_map. apply flat_map_ext_in. intros g Hg.
  rewrite Forall_flat_map, Forall_forall in Hok. exact (parse_concat_encode _ (Hok g Hg)).
Qed.

Lemma read_entries_render pre id es tail fl :
  Forall entry_ok (all_entries pre es) -> torn tail ->
  read_entries (mkDisk (render_all pre id es tail) fl) = all_entries pre es.
Proof.
  intros Hok Ht. unfold all_entries in *. apply Forall_app in Hok as [H1 H2].
  unfold read_entries, render_all. cbn [d_segs]. rewrite flat_map_app.
  rewrite flat_map_parse_render by assumption. cbn [flat_map snd].
  rewrite parse_torn by assumption. now rewrite app_nil_r.
Qed.

(* last_sequence_in_segments finds the last entry that read_entries returns *)
Lemma last_seq_in_read l : last_seq_in l = last_seq (flat_map (fun p => parse (snd p)) l).
Proof.
  induction l as [|[i b] l IH]; [reflexivity|].
  cbn [last_seq_in flat_map snd]. now rewrite last_seq_app, IH.
Qed.

Lemma last_seq_in_render_all pre id es tail :
  Forall entry_ok (all_entries pre es) -> torn tail ->
  last_seq_in (render_all pre id es tail) = last_seq (all_entries pre es).
Proof.
  intros Hok Ht. rewrite last_seq_in_read.
  exact (f_equal last_seq (read_entries_render pre id es tail None Hok Ht)).
Qed.

Definition top_of (l : list entry) : N := match last_seq l with Some s => s | None => 0 end.

Lemma top_seq_render pre id es tail fl :
  Forall entry_ok (all_entries pre es) -> torn tail ->
  top_seq (mkDisk (render_all pre id es tail) fl) = top_of (all_entries pre es).
Proof. intros. unfold top_seq, top_of. cbn [d_segs]. now rewrite last_seq_in_render_all. Qed.

(* no sequence number at or below the mark may be handed out again *)
Definition mark (A : list entry) (fl : N) : N := N.max (top_of A) fl.

(* load_flushed_seq reads the flushed file alone; the segments play no part *)
Definition flv (fl : option bytes) : N := load_flushed (mkDisk [] fl).

Lemma load_flushed_flv s fl : load_flushed (mkDisk s fl) = flv fl.
Proof. reflexivity. Qed.

(* a file holding [l] and then [t] is longer than [l] unless [t] is empty;
   cut back to the length of [l] it is [l] *)
Lemma cut_back {A} (l t : list A) :
  (lenN l <? lenN (l ++ t)) = true /\ firstn (N.to_nat (lenN l)) (l ++ t) = l \/
  (lenN l <? lenN (l ++ t)) = false /\ t = [].
Proof.
  destruct (lenN l <? lenN (l ++ t)) eqn:E; [left | right]; (split; [reflexivity|]).
  - apply firstn_len_app. symmetry. apply to_nat_lenN.
  - apply N.ltb_ge in E. rewrite lenN_app in E.
    destruct t; [reflexivity | unfold lenN in E; cbn [length] in E; lia].
Qed.

(* open, once it has found [file] as the newest segment [id] *)
Lemma wal_open_found max d id file :
  last_id (d_segs d) = Some id -> seg_get id (d_segs d) = Some file ->
  wal_open max d =
  let valid := valid_len (parse file) in
  let segs2 := if valid <? lenN file then seg_put id (firstn (N.to_nat valid) file) (d_segs d) else d_segs d in
  let top := N.max (match last_seq_in segs2 with Some s => s | None => 0 end) (load_flushed d) in
  (mkDisk segs2 (d_flushed d),
   if U64_LIMIT <=? top + 1 then Panic
   else Done (mkWal max id (if valid <? lenN file then valid else lenN file) (top + 1))).
Proof.
  intros Hid Hfile. unfold wal_open, seg_touch. cbv zeta. rewrite Hid, !Hfile.
  now destruct (U64_LIMIT <=? _).
Qed.

(* open on a directory of the known shape: the newest file is cut back to the
   entries that parse, and numbering starts above the mark *)
Lemma wal_open_shape max pre id es tail fl :
  Forall (fun g : gseg => fst g < id) pre -> Forall entry_ok (all_entries pre es) -> torn tail ->
  wal_open max (mkDisk (render_all pre id es tail) fl) =
  (mkDisk (render_all pre id es []) fl,
   if U64_LIMIT <=? mark (all_entries pre es) (flv fl) + 1 then Panic
   else Done (mkWal max id (lenN (enc_entries es)) (mark (all_entries pre es) (flv fl) + 1))).
Proof.
  intros Hids Hok Ht. pose proof (below_render _ _ Hids) as Hb.
  assert (Hes : Forall entry_ok es) by (apply Forall_app in Hok; apply Hok).
  unfold mark, top_of. rewrite <- (last_seq_in_render_all pre id es [] Hok torn_nil).
  unfold render_all.
  rewrite (wal_open_found max _ id (enc_entries es ++ tail)) by (apply last_id_snoc || now apply seg_get_last).
  cbv zeta. cbn [d_segs d_flushed]. rewrite (parse_torn es tail Hes Ht), valid_len_enc, app_nil_r.
  destruct (cut_back (enc_entries es) tail) as [[-> ->] | [-> ->]];
    [rewrite seg_put_last by exact Hb | rewrite app_nil_r]; reflexivity.
Qed.

(* reopening a directory whose newest segment ends in a write cut at any byte:
   exactly the complete entries are read, in order; open removes the partial
   bytes and nothing else; the next sequence number is above both the newest
   complete entry and the flushed mark *)
Theorem reopen_exact max pre id es e k fl :
  Forall (fun g : gseg => fst g < id) pre -> Forall entry_ok (all_entries pre es) ->
  entry_ok e -> (k < length (enc_entry e))%nat ->
  let d := mkDisk (render_all pre id es (firstn k (enc_entry e))) fl in
  read_entries d = all_entries pre es /\
  let d' := fst (wal_open max d) in
  d_segs d' = render_all pre id es [] /\ d_flushed d' = fl /\
  read_entries d' = all_entries pre es /\
  forall w, snd (wal_open max d) = Done w ->
    w_cur w = id /\ w_next w = N.max (top_of (all_entries pre es)) (load_flushed d) + 1.
Proof.
  intros Hids Hok He Hk d.
  assert (Ht : torn (firstn k (enc_entry e))) by (exists e, k; auto).
  split; [now apply read_entries_render|].
  subst d. rewrite wal_open_shape by assumption. cbn [fst snd d_segs d_flushed].
  split; [reflexivity|]. split; [reflexivity|].
  split; [apply read_entries_render; [assumption|apply torn_nil]|].
  intros w Hw. destruct (U64_LIMIT <=? _); [discriminate|]. inversion Hw; subst. split; reflexivity.
Qed.

Lemma top_of_cases A : A = [] \/ exists e, In e A /\ top_of A = e_seq e.
Proof.
  unfold top_of. destruct (last_seq A) as [t|] eqn:E; [right | left; now apply last_seq_none].
  destruct (last_seq_some A t E) as (A' & e & -> & <-). exists e. split; [|reflexivity].
  apply in_or_app. right. now left.
Qed.

Lemma top_of_lt A x : Forall (fun e => e_seq e < x) A -> 0 < x -> top_of A < x.
Proof.
  intros HA Hx. destruct (top_of_cases A) as [-> | (e & Hi & ->)]; [exact Hx|].
  rewrite Forall_forall in HA. now apply HA.
Qed.

Lemma top_of_limit {A} : Forall entry_ok A -> top_of A < U64_LIMIT.
Proof.
  intros H. destruct (top_of_cases A) as [-> | (e & Hi & ->)]; [reflexivity|].
  rewrite Forall_forall in H. apply (H e Hi).
Qed.

Lemma top_of_ge A : asc (seqs A) -> Forall (fun e => e_seq e <= top_of A) A.
Proof.
  intros Ha. unfold top_of. destruct (last_seq A) as [t|] eqn:E.
  - now apply asc_le_last.
  - apply last_seq_none in E. subst. constructor.
Qed.

(* removing entries below [b] from the front leaves the newest entry in
   place, unless all go: then the newest was below [b] *)
Lemma top_of_drop D A b : Forall (fun e => e_seq e < b) D ->
  top_of (D ++ A) = top_of A \/ top_of A = 0 /\ top_of (D ++ A) < b.
Proof.
  intros HD. unfold top_of. rewrite last_seq_app.
  destruct (last_seq A); [now left|]. fold (top_of D).
  destruct (top_of_cases D) as [-> | (e & Hi & ->)]; [now left|].
  right. split; [reflexivity|]. rewrite Forall_forall in HD. now apply HD.
Qed.

(* The log part of the history invariant.
   A   : the valid entries now in the directory, in order
   fl  : the flushed mark as load_flushed_seq reads it
   ow  : the handle, if the process is up;  tail : partial bytes at the end
   C   : every entry written completely so far;  wm : the watermark;
   tb  : the largest truncation bound so far *)
Definition logok (A : list entry) (fl : N) (ow : option wal) (tail : bytes)
                 (C : list entry) (wm tb : N) : Prop :=
  Forall entry_ok A /\ asc (seqs A) /\
  (forall w, ow = Some w -> tail = [] /\ Forall (fun e => e_seq e < w_next w) A /\ fl < w_next w) /\
  (exists n, (n <= length C)%nat /\ A = skipn n C /\ Forall (fun e => e_seq e < tb) (firstn n C)) /\
  wm <= N.max (top_of A) fl /\ Forall (fun e => e_seq e <= N.max (top_of A) fl) C /\
  tb <= N.max (top_of A) fl + 1.

Lemma Forall_seq_lt {l x y} : Forall (fun e => e_seq e < x) l -> x <= y -> Forall (fun e => e_seq e < y) l.
Proof. intros H Hxy. revert H. apply Forall_impl. intros e He. lia. Qed.

Lemma mark_fl A fl : fl <= mark A fl.
Proof. apply N.le_max_r. Qed.

Lemma mark_top A fl : top_of A <= mark A fl.
Proof. apply N.le_max_l. Qed.

Lemma mark_absorb A fl : fl <= top_of A -> mark A fl = top_of A.
Proof. apply N.max_l. Qed.

Lemma mark_lt A fl n : Forall (fun e => e_seq e < n) A -> fl < n -> mark A fl < n.
Proof. intros HA Hfl. apply N.max_lub_lt; [apply top_of_lt; [exact HA | lia] | exact Hfl]. Qed.

Lemma mark_lt_entries A fl n : asc (seqs A) -> mark A fl < n -> Forall (fun e => e_seq e < n) A.
Proof.
  intros Hasc Hn. pose proof (mark_top A fl).
  generalize (top_of_ge A Hasc). apply Forall_impl. intros e He. lia.
Qed.

(* logok with its clauses named, the handle's clause said of the mark, and the
   removed entries as a list: the form the proofs use.  Inv, a hypothesis of
   flush_disciplined, is stated with logok, which unfolds to plain
   conjunctions. *)
Local Set Implicit Arguments.
Record log_ok (A : list entry) (fl : N) (ow : option wal) (tail : bytes)
              (C : list entry) (wm tb : N) : Prop := {
  lo_entries : Forall entry_ok A;
  lo_asc : asc (seqs A);
  (* nothing partial under a handle, and its next number is unused *)
  lo_handle : forall w, ow = Some w -> tail = [] /\ mark A fl < w_next w;
  (* only truncate_before removes, and only below its bound *)
  lo_dropped : exists D, C = D ++ A /\ Forall (fun e => e_seq e < tb) D;
  lo_wm : wm <= mark A fl;
  lo_written : Forall (fun e => e_seq e <= mark A fl) C;
  lo_tb : tb <= mark A fl + 1 }.
Local Unset Implicit Arguments.

Lemma logok_iff A fl ow tail C wm tb : logok A fl ow tail C wm tb <-> log_ok A fl ow tail C wm tb.
Proof.
  unfold logok. fold (mark A fl). rewrite dropped_iff. split.
  - intros (Hok & Hasc & Hh & Hdrop & Hwm & HC & Htb). constructor; try assumption.
    (* lo_handle *) intros w Hw. destruct (Hh w Hw) as (Ht & Hlt & Hfl). split; [exact Ht | now apply mark_lt].
  - intros [Hok Hasc Hh Hdrop Hwm HC Htb]. split; [exact Hok|]. split; [exact Hasc|]. split; [|tauto].
    intros w Hw. destruct (Hh w Hw) as [Ht Hlt]. pose proof (mark_fl A fl).
    split; [exact Ht|]. split; [exact (mark_lt_entries A fl _ Hasc Hlt) | lia].
Qed.

Lemma log_ok_next {A fl w tail C wm tb} :
  log_ok A fl (Some w) tail C wm tb -> wm < w_next w /\ fl < w_next w /\ tb <= w_next w.
Proof.
  intros H. destruct (lo_handle H eq_refl) as [_ Hm].
  pose proof (lo_wm H). pose proof (lo_tb H). pose proof (mark_fl A fl). lia.
Qed.

(* with the entries and the mark unchanged, the flushed mark may move, the
   watermark may rise up to it, and any handle above the mark will do *)
Lemma log_ok_frame {A fl ow tail C wm tb fl' ow' tail' wm'} :
  log_ok A fl ow tail C wm tb ->
  mark A fl' = mark A fl -> wm' <= N.max wm fl' ->
  (forall w, ow' = Some w -> tail' = [] /\ mark A fl < w_next w) ->
  log_ok A fl' ow' tail' C wm' tb.
Proof.
  intros [Hok Hasc _ Hdrop Hwm HC Htb] Hm Hwm' Hw. pose proof (mark_fl A fl').
  constructor; rewrite ?Hm; try assumption. lia.
Qed.

Lemma log_ok_append A fl w w' C wm tb e :
  log_ok A fl (Some w) [] C wm tb -> entry_ok e -> e_seq e = w_next w -> w_next w' = w_next w + 1 ->
  log_ok (A ++ [e]) fl (Some w') [] (C ++ [e]) (N.max wm (N.max (e_seq e) fl)) tb.
Proof.
  intros [Hok Hasc Hh Hdrop Hwm HC Htb] He Hs Hw'. destruct (Hh w eq_refl) as [_ Hm]. rewrite <- Hs in *.
  pose proof (mark_fl A fl).
  (* the new entry is the mark *)
  assert (Hm' : mark (A ++ [e]) fl = e_seq e) by (unfold mark, top_of; rewrite last_seq_snoc; lia).
  constructor; rewrite ?Hm'.
  - now apply Forall_snoc.
  - apply asc_snoc; [exact Hasc | exact (mark_lt_entries A fl _ Hasc Hm)].
  - intros w2 [= <-]. split; [reflexivity | lia].
  - destruct Hdrop as (D & -> & HD). exists D. split; [symmetry; apply app_assoc | exact HD].
  - lia.
  - apply Forall_snoc; [|lia]. revert HC. apply Forall_impl. intros x Hx. lia.
  - lia.
Qed.

(* truncate_before removes a prefix of the valid entries, all below the bound; under
   the caller discipline the mark does not move *)
Lemma log_ok_trunc D A fl ow tail C wm tb b :
  log_ok (D ++ A) fl ow tail C wm tb -> Forall (fun e => e_seq e < b) D ->
  (b <= top_of (D ++ A) \/ b <= fl + 1) ->
  log_ok A fl ow tail C wm (N.max tb b).
Proof.
  intros [Hok Hasc Hh Hdrop Hwm HC Htb] HD Hb.
  assert (Hm : mark (D ++ A) fl = mark A fl).
  { unfold mark. destruct (top_of_drop D A b HD) as [-> | [-> Hlt]]; [reflexivity|].
    rewrite N.max_0_l. apply N.max_r. lia. }
  pose proof (mark_top (D ++ A) fl). pose proof (mark_fl A fl). rewrite Hm in *.
  apply Forall_app in Hok. rewrite seqs_app in Hasc. apply asc_app in Hasc.
  constructor; try assumption.
  - apply Hok.
  - apply Hasc.
  - destruct Hdrop as (D0 & -> & HD0). exists (D0 ++ D). split; [apply app_assoc|].
    apply Forall_app. split; [apply (Forall_seq_lt HD0) | apply (Forall_seq_lt HD)]; lia.
  - lia.
Qed.

Lemma log_ok_nil fl : log_ok [] fl None [] [] 0 0.
Proof.
  constructor; [constructor | exact I | discriminate | now exists [] | apply N.le_0_l | constructor | apply N.le_0_l].
Qed.

(* truncate_before on a directory of the known shape: what is removed is a
   prefix of the older segments' entries, all below b *)
Lemma trunc_shape w pre es fl b :
  Forall (fun g : gseg => fst g < w_cur w) pre ->
  Forall entry_ok (all_entries pre es) -> asc (seqs (all_entries pre es)) ->
  exists pre' D,
    wal_truncate_before w (mkDisk (render_all pre (w_cur w) es []) fl) b =
      mkDisk (render_all pre' (w_cur w) es []) fl /\
    Forall (fun g : gseg => fst g < w_cur w) pre' /\
    all_entries pre es = D ++ all_entries pre' es /\ Forall (fun e => e_seq e < b) D.
Proof.
  unfold wal_truncate_before, render_all, all_entries. cbn [d_segs d_flushed].
  induction pre as [|[i es0] pre IH]; intros Hids Hok Hasc.
  - exists [], []. cbn [map app trunc_loop]. rewrite N.leb_refl. now repeat split.
  - inversion Hids as [|? ? Hi Hids']; subst. cbn [flat_map fst snd] in *. rewrite <- app_assoc in Hok, Hasc |- *.
    apply Forall_app in Hok. rewrite seqs_app in Hasc. apply asc_app in Hasc.
    destruct IH as (pre' & D & [= Heq] & Hpre' & HD & Hlt); [exact Hids' | apply Hok | apply Hasc |].
    cbn [map app render fst snd trunc_loop].
    rewrite (proj2 (N.leb_gt (w_cur w) i) Hi), parse_concat_encode by apply Hok.
    destruct (last_seq es0) as [ls|] eqn:El; [destruct (ls <? b) eqn:Eb|].
    + exists pre', (es0 ++ D). rewrite Heq, <- app_assoc, <- HD. repeat split; try assumption.
      apply Forall_app. split; [|exact Hlt]. apply N.ltb_lt in Eb.
      generalize (asc_le_last (proj1 Hasc) El). apply Forall_impl. intros e He. lia.
    + exists ((i, es0) :: pre), []. cbn [flat_map snd]. rewrite <- app_assoc. now repeat split.
    + apply last_seq_none in El. subst es0. exists ((i, []) :: pre'), D.
      cbn [map render fst snd app flat_map enc_entries]. rewrite Heq. repeat split; try assumption.
      now constructor.
Qed.

Lemma all_entries_rotate pre id es : all_entries (pre ++ [(id, es)]) [] = all_entries pre es.
Proof. unfold all_entries. rewrite flat_map_app. cbn [flat_map snd]. now rewrite !app_nil_r. Qed.

Lemma wal_rotate_shape w pre es fl :
  Forall (fun g : gseg => fst g < w_cur w) pre ->
  wal_rotate w (mkDisk (render_all pre (w_cur w) es []) fl) =
  (mkDisk (render_all (pre ++ [(w_cur w, es)]) (w_cur w + 1) [] []) fl,
   mkWal (w_max w) (w_cur w + 1) 0 (w_next w)).
Proof.
  intros Hids. pose proof (below_render _ _ Hids) as Hb.
  unfold wal_rotate. cbn [d_segs d_flushed]. f_equal. f_equal.
  unfold seg_touch, render_all.
  rewrite seg_get_app, seg_put_app by (apply (below_mono _ _ _ Hb); lia).
  cbn [seg_get aget seg_put]. rewrite (proj2 (N.eqb_neq _ _)), (proj2 (N.ltb_ge _ _)) by lia.
  rewrite map_app. cbn [map render fst snd enc_entries flat_map app].
  rewrite <- app_assoc. cbn [app]. now rewrite !app_nil_r.
Qed.

Lemma rotated_below id pre (es : list entry) :
  Forall (fun g : gseg => fst g < id) pre -> Forall (fun g : gseg => fst g < id + 1) (pre ++ [(id, es)]).
Proof.
  intros H. apply Forall_snoc; [|cbn; lia].
  revert H. apply Forall_impl. intros g Hg. lia.
Qed.

Lemma seg_append_shape pre id es fl data :
  Forall (fun g : gseg => fst g < id) pre ->
  mkDisk (seg_append id data (render_all pre id es [])) fl = mkDisk (render_all pre id es data) fl.
Proof.
  intros Hids. pose proof (below_render _ _ Hids) as Hb. f_equal.
  unfold seg_append, render_all. rewrite seg_get_last by assumption.
  rewrite seg_put_last by assumption. now rewrite app_nil_r.
Qed.

(* with or without a rotation first, the [keep] bytes land behind the
   complete entries of the (possibly new) newest segment *)
Lemma append_cut_shape w pre es fl pl keep :
  Forall (fun g : gseg => fst g < w_cur w) pre ->
  (U64_LIMIT <=? w_next w + 1) = false ->
  exists pre' id' es' w',
    append_cut w (mkDisk (render_all pre (w_cur w) es []) fl) pl keep =
    Done (mkDisk (render_all pre' id' es'
                    (firstn (N.to_nat keep) (enc_entry (mkEntry (w_next w) 0 pl)))) fl,
          w', w_next w) /\
    Forall (fun g : gseg => fst g < id') pre' /\ all_entries pre' es' = all_entries pre es /\
    w_cur w' = id' /\ w_next w' = w_next w + 1.
Proof.
  intros Hids Hov. unfold append_cut. rewrite Hov.
  change (encode_header (w_next w) 0 pl ++ pl) with (enc_entry (mkEntry (w_next w) 0 pl)).
  destruct ((0 <? w_max w) && (w_max w <? w_size w + (WAL_HEADER_LEN + lenN pl))).
  - rewrite wal_rotate_shape by assumption. cbn [w_cur w_max w_size w_next d_segs d_flushed].
    pose proof (rotated_below _ _ es Hids) as Hids'.
    eexists _, _, [], _. rewrite seg_append_shape by exact Hids'.
    split; [reflexivity|]. split; [exact Hids'|]. split; [apply all_entries_rotate|]. split; reflexivity.
  - eexists pre, _, es, _. cbn [d_segs d_flushed]. rewrite seg_append_shape by assumption.
    split; [reflexivity|]. split; [exact Hids|]. repeat split.
Qed.

(* a complete write extends the entries of the newest segment *)
Lemma render_all_complete pre id es e :
  render_all pre id es (enc_entry e) = render_all pre id (es ++ [e]) [].
Proof.
  unfold render_all. rewrite enc_entries_app. cbn [enc_entries flat_map]. now rewrite !app_nil_r.
Qed.

Lemma all_entries_snoc pre es e : all_entries pre (es ++ [e]) = all_entries pre es ++ [e].
Proof. unfold all_entries. now rewrite app_assoc. Qed.

(* only the complete write of the eight bytes is read back; anything shorter counts as no mark *)
Lemma flv_cut x keep : x < U64_LIMIT -> keep <= WAL_FLUSHED_LEN ->
  flv (Some (firstn (N.to_nat keep) (le_bytes 8 x))) = if keep =? WAL_FLUSHED_LEN then x else 0.
Proof.
  intros Hx Hk. unfold flv, load_flushed. cbn [d_flushed].
  assert (Hlen : lenN (firstn (N.to_nat keep) (le_bytes 8 x)) = keep).
  { unfold lenN. rewrite firstn_length, le_bytes_length. change WAL_FLUSHED_LEN with 8 in Hk. lia. }
  rewrite Hlen. destruct (keep =? WAL_FLUSHED_LEN) eqn:E; [|reflexivity].
  apply N.eqb_eq in E. subst keep. rewrite firstn_all2 by now rewrite le_bytes_length.
  now apply le_val_le_bytes_small.
Qed.

Definition good (st : state) (C : list entry) (wm tb : N) : Prop :=
  exists pre id es tail fl ow,
    st = mkState (mkDisk (render_all pre id es tail) fl) ow /\
    Forall (fun g : gseg => fst g < id) pre /\ torn tail /\
    (forall w, ow = Some w -> w_cur w = id) /\
    logok (all_entries pre es) (flv fl) ow tail C wm tb.

(* nothing has been opened yet *)
Definition fresh (st : state) (C : list entry) (wm tb : N) : Prop :=
  exists fl, st = mkState (mkDisk [] fl) None /\ flv fl = 0 /\ C = [] /\ wm = 0 /\ tb = 0.

Definition Inv (st : state) (C : list entry) (wm tb : N) : Prop := fresh st C wm tb \/ good st C wm tb.

Lemma Inv_good pre id es tail fl ow C wm tb :
  Forall (fun g : gseg => fst g < id) pre -> torn tail -> (forall w, ow = Some w -> w_cur w = id) ->
  log_ok (all_entries pre es) (flv fl) ow tail C wm tb ->
  Inv (mkState (mkDisk (render_all pre id es tail) fl) ow) C wm tb.
Proof.
  intros Hids Ht Hcur Hlog%logok_iff. right. exists pre, id, es, tail, fl, ow.
  exact (conj eq_refl (conj Hids (conj Ht (conj Hcur Hlog)))).
Qed.

Lemma Inv_fresh fl : flv fl = 0 -> Inv (mkState (mkDisk [] fl) None) [] 0 0.
Proof. intros Hfl. left. now exists fl. Qed.

(* while a handle is up, it points at the newest segment and nothing partial is on disk *)
Lemma Inv_handle {st C wm tb w} : Inv st C wm tb -> st_wal st = Some w ->
  exists pre es fl,
    st = mkState (mkDisk (render_all pre (w_cur w) es []) fl) (Some w) /\
    Forall (fun g : gseg => fst g < w_cur w) pre /\
    log_ok (all_entries pre es) (flv fl) (Some w) [] C wm tb.
Proof.
  intros [(fl & -> & _) | (pre & id & es & tail & fl & ow & -> & Hids & _ & Hcur & Hlog%logok_iff)] Ew;
    [discriminate|].
  cbn in Ew. subst ow. rewrite <- (Hcur w eq_refl) in *.
  destruct (lo_handle Hlog eq_refl) as [-> _]. now exists pre, es, fl.
Qed.

Lemma Inv_crash {st C wm tb} : Inv st C wm tb -> Inv (mkState (st_disk st) None) C wm tb.
Proof.
  intros [(fl & -> & Hfl & -> & -> & ->) | (pre & id & es & tail & fl & ow & -> & Hids & Ht & _ & Hlog%logok_iff)]; cbn [st_disk].
  - now apply Inv_fresh.
  - apply Inv_good; [assumption | assumption | discriminate|].
    apply (log_ok_frame Hlog); [reflexivity | apply N.le_max_l | discriminate].
Qed.

Lemma Inv_read {st C wm tb} : Inv st C wm tb ->
  asc (seqs (read_entries (st_disk st))) /\
  exists D, C = D ++ read_entries (st_disk st) /\ Forall (fun e => e_seq e < tb) D.
Proof.
  intros [(fl & -> & _ & -> & _) | (pre & id & es & tail & fl & ow & -> & _ & Ht & _ & Hlog%logok_iff)].
  - split; [exact I|]. now exists [].
  - cbn [st_disk]. rewrite (read_entries_render pre id es tail fl (lo_entries Hlog) Ht).
    split; [exact (lo_asc Hlog) | exact (lo_dropped Hlog)].
Qed.

(* what a step establishes: the invariant with the event taken into account,
   and a number handed out lies above watermark, flushed mark and truncation bound *)
Definition post (C : list entry) (wm tb : N) (r : state * event) : Prop :=
  Inv (fst r) (C ++ complete_ev (snd r)) (wm_step wm (snd r)) (trunc_step tb (snd r)) /\
  match assigned (snd r) with Some (s, fl) => wm < s /\ fl < s /\ tb <= s | None => True end.

(* events that neither complete an entry nor hand out a number *)
Lemma post_quiet st ev C wm tb : complete_ev ev = [] -> assigned ev = None ->
  Inv st C (wm_step wm ev) (trunc_step tb ev) -> post C wm tb (st, ev).
Proof. intros Hc Ha H. unfold post. cbn [fst snd]. rewrite Hc, Ha, app_nil_r. now split. Qed.

Lemma payload_ok_spec pl : payload_ok pl = true -> lenN pl < U32_LIMIT /\ Forall (fun b => b < 256) pl.
Proof.
  unfold payload_ok. intros H. apply andb_true_iff in H as [H1 H2]. split.
  - now apply N.ltb_lt.
  - rewrite Forall_forall. rewrite forallb_forall in H2. intros b Hb. apply N.ltb_lt. now apply H2.
Qed.

Lemma full_keep s pl : N.to_nat (WAL_HEADER_LEN + lenN pl) = length (enc_entry (mkEntry s 0 pl)).
Proof. rewrite enc_entry_length. cbn [e_payload]. unfold lenN. lia. Qed.

(* open takes no notice of the handle it finds (ow0); ow is the one the
   invariant speaks of *)
Lemma open_good pre id es tail fl ow ow0 C wm tb max :
  Forall (fun g : gseg => fst g < id) pre -> torn tail ->
  log_ok (all_entries pre es) (flv fl) ow tail C wm tb ->
  post C wm tb (step (mkState (mkDisk (render_all pre id es tail) fl) ow0) (OOpen max)).
Proof.
  intros Hids Ht Hlog. cbn [step st_disk].
  rewrite (wal_open_shape max pre id es tail fl Hids (lo_entries Hlog) Ht), load_flushed_flv.
  destruct (U64_LIMIT <=? _); apply post_quiet; try reflexivity; cbn [wm_step trunc_step w_next].
  - apply Inv_good; [assumption | apply torn_nil | discriminate|].
    apply (log_ok_frame Hlog); [reflexivity | apply N.le_max_l | discriminate].
  - apply Inv_good; [assumption | apply torn_nil | now intros w [= <-] |].
    apply (log_ok_frame Hlog); [reflexivity | reflexivity |].
    intros w [= <-]. cbn [w_next]. split; [reflexivity|lia].
Qed.

(* open creates the first segment file in an empty directory, and then
   proceeds as if it had found it *)
Lemma wal_open_empty max fl :
  wal_open max (mkDisk [] fl) = wal_open max (mkDisk (render_all [] WAL_FIRST_SEGMENT_ID [] []) fl).
Proof. reflexivity. Qed.

Lemma step_open st C wm tb max : Inv st C wm tb -> post C wm tb (step st (OOpen max)).
Proof.
  intros [(fl & -> & Hfl & -> & -> & ->) | (pre & id & es & tail & fl & ow & -> & Hids & Ht & _ & Hlog%logok_iff)].
  - unfold step. cbn [st_disk]. rewrite wal_open_empty.
    apply (open_good [] _ [] [] fl None None); [constructor | apply torn_nil | apply log_ok_nil].
  - now apply (open_good _ _ _ _ _ ow).
Qed.

Lemma post_crash C wm tb st ev : post C wm tb (st, ev) -> post C wm tb (mkState (st_disk st) None, ev).
Proof. intros [HI Hs]. split; [exact (Inv_crash HI) | exact Hs]. Qed.

(* append_payload with [keep] bytes reaching the file: the number w_next w is
   used up; the entry counts as written, and the handle is of further use, iff
   all its bytes arrived *)
Lemma append_cut_inv st w C wm tb pl keep :
  Inv st C wm tb -> st_wal st = Some w -> payload_ok pl = true -> keep <= WAL_HEADER_LEN + lenN pl ->
  append_cut w (st_disk st) pl keep = Panic \/
  exists d' w',
    append_cut w (st_disk st) pl keep = Done (d', w', w_next w) /\
    post C wm tb (mkState d' (if keep =? WAL_HEADER_LEN + lenN pl then Some w' else None),
                  EvTorn (w_next w) pl keep (load_flushed (st_disk st))).
Proof.
  intros HI Ew Hpl Hkeep. destruct (Inv_handle HI Ew) as (pre & es & fl & -> & Hids & Hlog). cbn [st_disk].
  destruct (U64_LIMIT <=? w_next w + 1) eqn:Hov; [left; unfold append_cut; now rewrite Hov | right].
  destruct (append_cut_shape w pre es fl pl keep Hids Hov) as (pre' & id' & es' & w' & Heq & Hids' & Hall & Hc & Hn).
  set (e := mkEntry (w_next w) 0 pl) in *.
  assert (He : entry_ok e).
  { destruct (payload_ok_spec pl Hpl). apply N.leb_gt in Hov. repeat split; cbn; try assumption. lia. }
  pose proof (full_keep (w_next w) pl) as Hfull. fold e in Hfull.
  eexists _, w'. split; [exact Heq|]. split; [|exact (log_ok_next Hlog)].
  cbn [fst snd complete_ev wm_step trunc_step]. rewrite load_flushed_flv.
  destruct (keep =? _) eqn:Ek.
  - apply N.eqb_eq in Ek. subst keep. rewrite Hfull, firstn_all, render_all_complete.
    apply Inv_good; [exact Hids' | apply torn_nil | now intros ? [= <-] |].
    rewrite all_entries_snoc, Hall. now apply (log_ok_append _ _ w).
  - apply N.eqb_neq in Ek. rewrite app_nil_r.
    apply Inv_good; [exact Hids' | exists e, (N.to_nat keep); split; [exact He | split; [lia|reflexivity]] | discriminate |].
    rewrite Hall. apply (log_ok_frame Hlog); [reflexivity | reflexivity | discriminate].
Qed.

Lemma step_append st C wm tb pl :
  Inv st C wm tb -> payload_ok pl = true -> post C wm tb (step st (OAppend pl)).
Proof.
  intros HI Hpl. cbn [step]. destruct (st_wal st) as [w|] eqn:Ew; [|now apply post_quiet].
  unfold wal_append.
  destruct (append_cut_inv st w C wm tb pl _ HI Ew Hpl (N.le_refl _)) as [-> | (d' & w' & -> & Hp)].
  - now apply post_quiet.
  - (* of a complete write, EvTorn says what EvAck says *)
    unfold post in *. cbn [fst snd complete_ev wm_step trunc_step assigned] in *.
    now rewrite N.eqb_refl in Hp.
Qed.

Lemma step_crash_append st C wm tb pl keep :
  Inv st C wm tb -> op_ok st (OCrashAppend pl keep) = true -> post C wm tb (step st (OCrashAppend pl keep)).
Proof.
  intros HI Hop. cbn [op_ok] in Hop. apply andb_true_iff in Hop as [Hpl Hkeep%N.leb_le].
  cbn [step]. destruct (st_wal st) as [w|] eqn:Ew; [|now apply post_quiet].
  destruct (append_cut_inv st w C wm tb pl keep HI Ew Hpl Hkeep) as [-> | (d' & w' & -> & Hp)].
  - apply post_crash. now apply post_quiet.
  - exact (post_crash _ _ _ _ _ Hp).
Qed.

Lemma step_rotate st C wm tb : Inv st C wm tb -> post C wm tb (step st ORotate).
Proof.
  intros HI. cbn [step]. destruct (st_wal st) as [w|] eqn:Ew; [|now apply post_quiet].
  destruct (Inv_handle HI Ew) as (pre & es & fl & -> & Hids & Hlog).
  cbn [st_disk]. rewrite wal_rotate_shape by assumption.
  apply post_quiet; [reflexivity | reflexivity|]. cbn [wm_step trunc_step].
  apply Inv_good; [now apply rotated_below | apply torn_nil | now intros ? [= <-] |].
  rewrite all_entries_rotate. apply (log_ok_frame Hlog); [reflexivity | apply N.le_max_l |].
  intros ? [= <-]. exact (lo_handle Hlog eq_refl).
Qed.

Lemma step_truncate st C wm tb b :
  Inv st C wm tb -> op_ok st (OTruncate b) = true -> post C wm tb (step st (OTruncate b)).
Proof.
  intros HI Hop. cbn [step]. destruct (st_wal st) as [w|] eqn:Ew; [|now apply post_quiet].
  destruct (Inv_handle HI Ew) as (pre & es & fl & -> & Hids & Hlog).
  pose proof (lo_entries Hlog) as Hok.
  cbn [op_ok st_disk] in *. rewrite (top_seq_render pre _ es [] fl Hok torn_nil), load_flushed_flv in Hop.
  apply orb_true_iff in Hop. rewrite !N.leb_le in Hop.
  destruct (trunc_shape w pre es fl b Hids Hok (lo_asc Hlog)) as (pre' & D & -> & Hids' & Hall & HD).
  apply post_quiet; [reflexivity | reflexivity|]. cbn [wm_step trunc_step].
  apply Inv_good; [assumption | apply torn_nil | now intros ? [= <-] |].
  rewrite Hall in Hlog, Hop. now apply (log_ok_trunc D).
Qed.

(* the handle after a write that may have been cut, if there is one, is the one before *)
Lemma kept_handle (b : bool) (ow : option wal) w : (if b then ow else None) = Some w -> ow = Some w.
Proof. now destruct b. Qed.

(* persist_flushed_seq with [keep] bytes reaching the file: a complete write
   moves the mark to x, a cut one resets it to 0 and the process is gone *)
Lemma persist_cut_inv st C wm tb x keep :
  Inv st C wm tb -> op_ok st (OCrashPersist x keep) = true ->
  post C wm tb (mkState (persist_cut (st_disk st) x keep) (if keep =? WAL_FLUSHED_LEN then st_wal st else None),
                EvPersist x keep).
Proof.
  intros HI Hop. cbn [op_ok] in Hop. apply andb_true_iff in Hop as [[Hlo Hhi]%andb_true_iff Hkeep].
  apply N.leb_le in Hlo, Hhi, Hkeep.
  apply post_quiet; [reflexivity | reflexivity|]. cbn [wm_step trunc_step].
  destruct HI as [(fl & -> & Hfl & -> & -> & ->) | (pre & id & es & tail & fl & ow & -> & Hids & Ht & Hcur & Hlog%logok_iff)];
    cbn [st_disk st_wal] in *; unfold persist_cut; cbn [d_segs d_flushed].
  - (* nothing in the log yet: x = 0, and the file reads 0 either way *)
    change (top_seq _) with 0 in Hhi. apply N.le_0_r in Hhi. subst x.
    assert (Hz : flv (Some (firstn (N.to_nat keep) (le_bytes 8 0))) = 0)
      by (rewrite flv_cut by (reflexivity || assumption); now destruct (keep =? _)).
    destruct (keep =? _); exact (Inv_fresh _ Hz).
  - pose proof (lo_entries Hlog) as Hok.
    rewrite (top_seq_render pre id es tail fl Hok Ht) in Hhi. rewrite load_flushed_flv in Hlo.
    pose proof (N.le_lt_trans _ _ _ Hhi (top_of_limit Hok)) as Hx.
    apply Inv_good; [exact Hids | exact Ht | intros w Hw%kept_handle; exact (Hcur w Hw) |].
    rewrite (flv_cut x keep Hx Hkeep). apply (log_ok_frame Hlog).
    + (* x and 0 are at or below the newest entry, as the old mark is *)
      rewrite !mark_absorb; [reflexivity | exact (N.le_trans _ _ _ Hlo Hhi) |].
      destruct (keep =? _); [exact Hhi | apply N.le_0_l].
    + destruct (keep =? _); [reflexivity | apply N.le_max_l].
    + intros w Hw%kept_handle. exact (lo_handle Hlog Hw).
Qed.

Theorem step_inv {st o C wm tb} :
  Inv st C wm tb -> op_ok st o = true -> post C wm tb (step st o).
Proof.
  intros HI Hop. destruct o.
  - (* OOpen *) now apply step_open.
  - (* OAppend *) now apply step_append.
  - (* ORotate *) now apply step_rotate.
  - (* OTruncate *) now apply step_truncate.
  - (* OPersist: the write with all its bytes *)
    apply (persist_cut_inv st C wm tb x WAL_FLUSHED_LEN HI). cbn [op_ok] in *. now rewrite Hop.
  - (* OCrash *) apply post_crash. now apply post_quiet.
  - (* OCrashAppend *) now apply step_crash_append.
  - (* OCrashPersist *) exact (post_crash _ _ _ _ _ (persist_cut_inv st C wm tb x keep HI Hop)).
  - (* OCut: not a fault of the crash model *) discriminate.
  - (* OFlip: likewise *) discriminate.
Qed.

Lemma complete_of_snoc evs ev : complete_of (evs ++ [ev]) = complete_of evs ++ complete_ev ev.
Proof. unfold complete_of. rewrite flat_map_app. cbn [flat_map]. now rewrite app_nil_r. Qed.

Lemma watermark_snoc evs ev : watermark (evs ++ [ev]) = wm_step (watermark evs) ev.
Proof. unfold watermark. now rewrite fold_left_app. Qed.

Lemma max_trunc_snoc evs ev : max_trunc (evs ++ [ev]) = trunc_step (max_trunc evs) ev.
Proof. unfold max_trunc. now rewrite fold_left_app. Qed.

Definition InvT (st : state) (seen : list event) : Prop :=
  Inv st (complete_of seen) (watermark seen) (max_trunc seen).

Lemma run_cons st o r :
  run st (o :: r) = (fst (run (fst (step st o)) r), snd (step st o) :: snd (run (fst (step st o)) r)).
Proof.
  cbn [run]. destruct (step st o) as [st1 ev]. cbn [fst snd]. destruct (run st1 r) as [st2 evs]. reflexivity.
Qed.

Lemma run_inv h : forall st seen, InvT st seen -> hist_ok st h = true ->
  InvT (fst (run st h)) (seen ++ snd (run st h)) /\ regress_free seen (snd (run st h)).
Proof.
  induction h as [|o r IH]; intros st seen HI Hok.
  - cbn [run fst snd]. rewrite app_nil_r. split; [assumption|exact I].
  - cbn [hist_ok] in Hok. apply andb_true_iff in Hok as [Ho Hr].
    destruct (step_inv HI Ho) as [HI' Hreg].
    rewrite <- complete_of_snoc, <- watermark_snoc, <- max_trunc_snoc in HI'.
    destruct (IH _ _ HI' Hr) as [HI2 Hreg2]. rewrite <- app_assoc in HI2.
    rewrite run_cons. cbn [fst snd regress_free]. split; [exact HI2|]. split; [|exact Hreg2].
    destruct (assigned (snd (step st o))) as [[s fl]|]; [|exact I]. split; apply Hreg.
Qed.

Lemma run_init h : hist_ok init h = true ->
  InvT (fst (run init h)) (snd (run init h)) /\ regress_free [] (snd (run init h)).
Proof. apply (run_inv h init []). exact (Inv_fresh None eq_refl). Qed.

(* After ANY disciplined history of open / append / rotate / truncate /
   persist / crash (at a boundary, inside an append at any byte, inside the
   flushed-file write at any byte), the directory reads back exactly the
   completely written entries, in order, each once, minus a prefix that
   truncate_before removed — and everything removed lies below a bound that was
   passed to truncate_before. *)
Theorem history_recovery_exact h : hist_ok init h = true ->
  let st := fst (run init h) in
  let evs := snd (run init h) in
  exists n, (n <= length (complete_of evs))%nat /\
    read_entries (st_disk st) = skipn n (complete_of evs) /\
    Forall (fun e => e_seq e < max_trunc evs) (firstn n (complete_of evs)).
Proof. intros Hok. destruct (run_init h Hok) as [HI _]. apply dropped_iff. apply (Inv_read HI). Qed.

(* the recovered sequence numbers are strictly increasing: no entry twice, order kept *)
Theorem history_read_ascending h : hist_ok init h = true ->
  asc (seqs (read_entries (st_disk (fst (run init h))))).
Proof. intros Hok. destruct (run_init h Hok) as [HI _]. apply (Inv_read HI). Qed.

(* no sequence number is ever handed out at or below an acknowledged one, a
   completely written one, a completely persisted flushed mark, or the flushed
   mark that is on disk at that moment *)
Theorem seq_never_regresses h : hist_ok init h = true -> regress_free [] (snd (run init h)).
Proof. apply run_init. Qed.

(* regress_free, spelled out for one position of the trace *)
Lemma regress_free_at evs : forall seen t1 ev t2 s fl,
  regress_free seen evs -> evs = t1 ++ ev :: t2 -> assigned ev = Some (s, fl) ->
  watermark (seen ++ t1) < s /\ fl < s.
Proof.
  induction evs as [|e r IH]; intros seen t1 ev t2 s fl Hrf Heq Has.
  - destruct t1; discriminate.
  - cbn [regress_free] in Hrf. destruct Hrf as [Hh Hr]. destruct t1 as [|a t1]; injection Heq as <- ->.
    + rewrite Has in Hh. now rewrite app_nil_r.
    + replace (seen ++ e :: t1) with ((seen ++ [e]) ++ t1) by (now rewrite <- app_assoc).
      eapply IH; [exact Hr|reflexivity|exact Has].
Qed.

Lemma run_app h1 : forall st h2,
  run st (h1 ++ h2) =
  (fst (run (fst (run st h1)) h2), snd (run st h1) ++ snd (run (fst (run st h1)) h2)).
Proof.
  induction h1 as [|o r IH]; intros st h2.
  - cbn [app run fst snd]. now destruct (run st h2).
  - cbn [app]. rewrite !run_cons. cbn [fst snd]. rewrite IH. reflexivity.
Qed.

Lemma hist_ok_app h1 : forall st h2,
  hist_ok st (h1 ++ h2) = hist_ok st h1 && hist_ok (fst (run st h1)) h2.
Proof.
  induction h1 as [|o r IH]; intros st h2.
  - reflexivity.
  - cbn [app hist_ok]. rewrite run_cons. cbn [fst]. rewrite IH. now rewrite andb_assoc.
Qed.

(* only truncate_before reports a truncation *)
Lemma step_trunc_event st o b : snd (step st o) = EvTrunc b -> o = OTruncate b.
Proof.
  destruct o; cbn [step]; try discriminate.
  - (* OOpen *) destruct (wal_open max (st_disk st)) as [d' []]; discriminate.
  - (* OAppend *) destruct (st_wal st); [|discriminate]. destruct (wal_append w (st_disk st) pl) as [[[d' w'] s]| | |]; discriminate.
  - (* ORotate *) destruct (st_wal st); [|discriminate]. destruct (wal_rotate w (st_disk st)). discriminate.
  - (* OTruncate *) destruct (st_wal st); [|discriminate]. now intros [= ->].
  - (* OCrashAppend *) destruct (st_wal st); [|discriminate]. destruct (append_cut w (st_disk st) pl keep) as [[[d' w'] s]| | |]; discriminate.
Qed.

(* the truncation bounds of a run are those its operations pass *)
Lemma max_trunc_run h : forall st m s, m <= s -> (forall b, In (OTruncate b) h -> b <= s) ->
  fold_left trunc_step (snd (run st h)) m <= s.
Proof.
  induction h as [|o r IH]; intros st m s Hm Hall; [assumption|].
  rewrite run_cons. cbn [snd fold_left]. apply IH; [|intros b Hb; apply Hall; now right].
  destruct (snd (step st o)) eqn:E; cbn [trunc_step]; try assumption.
  apply step_trunc_event in E. subst o. specialize (Hall b (or_introl eq_refl)). lia.
Qed.

(* an entry written completely, and not below any truncation bound, is read back *)
Lemma Inv_reads_back {st C wm tb e} :
  Inv st C wm tb -> In e C -> tb <= e_seq e -> In e (read_entries (st_disk st)).
Proof.
  intros HI Hin Hge. destruct (Inv_read HI) as [_ (D & -> & HD)].
  apply in_app_or in Hin. destruct Hin as [Hin|Hin]; [|exact Hin].
  rewrite Forall_forall in HD. specialize (HD _ Hin). cbn beta in HD. lia.
Qed.

(* an append acknowledged with s in any state the invariant holds of is read
   back after every disciplined continuation that never truncates above s *)
Theorem ack_recoverable st seen pl h s fl0 :
  InvT st seen -> hist_ok st (OAppend pl :: h) = true ->
  snd (step st (OAppend pl)) = EvAck s pl fl0 ->
  (forall b, In (OTruncate b) h -> b <= s) ->
  In (mkEntry s 0 pl) (read_entries (st_disk (fst (run st (OAppend pl :: h))))).
Proof.
  intros HI Hok Hack Hb. destruct (run_inv _ st seen HI Hok) as [HI2 _].
  cbn [hist_ok] in Hok. apply andb_true_iff in Hok as [Hop _].
  (* no truncation bound was above s when s was handed out *)
  destruct (step_inv HI Hop) as [_ Hreg]. rewrite Hack in Hreg. destruct Hreg as (_ & _ & Htb).
  rewrite run_cons, Hack in HI2. cbn [fst snd] in HI2. rewrite run_cons. cbn [fst].
  apply (Inv_reads_back HI2); cbn [e_seq].
  - unfold complete_of. rewrite flat_map_app. apply in_or_app. right. now left.
  - unfold max_trunc. rewrite fold_left_app. cbn [fold_left trunc_step]. now apply max_trunc_run.
Qed.

(* An append acknowledged with sequence number s — after any history, in
   particular after a crash that left a partial entry behind and a reopening —
   is read back after any continuation (further crashes and reopenings
   included) in which truncate_before is never called with a bound above s. *)
Theorem appended_after_reopen_recoverable h1 pl h2 s fl0 :
  hist_ok init (h1 ++ OAppend pl :: h2) = true ->
  snd (step (fst (run init h1)) (OAppend pl)) = EvAck s pl fl0 ->
  (forall b, In (OTruncate b) h2 -> b <= s) ->
  In (mkEntry s 0 pl) (read_entries (st_disk (fst (run init (h1 ++ OAppend pl :: h2))))).
Proof.
  intros Hok Hack Hb. rewrite hist_ok_app in Hok. apply andb_true_iff in Hok as [Hok1 Hok2].
  destruct (run_init h1 Hok1) as [HI1 _].
  rewrite run_app. cbn [fst]. exact (ack_recoverable _ _ pl h2 s fl0 HI1 Hok2 Hack Hb).
Qed.

Lemma wal_open_keeps_flushed max d : d_flushed (fst (wal_open max d)) = d_flushed d.
Proof. unfold wal_open. destruct (U64_LIMIT <=? _); reflexivity. Qed.

(* ensure_wal (ensure_wal_ops: open, then truncate_before(flushed + 1)) keeps
   the discipline in any state: open leaves the flushed file alone, so the
   bound is still the mark + 1 when truncate_before is reached *)
Theorem ensure_wal_disciplined st max : hist_ok st (ensure_wal_ops max (st_disk st)) = true.
Proof.
  unfold ensure_wal_ops. destruct (0 <? load_flushed (st_disk st)) eqn:E; [|reflexivity].
  cbn [hist_ok op_ok]. rewrite andb_true_r. cbn [andb].
  apply orb_true_iff. right. apply N.leb_le.
  assert (Hfl : load_flushed (st_disk (fst (step st (OOpen max)))) = load_flushed (st_disk st)).
  { destruct st as [d ow]. cbn [step st_disk]. pose proof (wal_open_keeps_flushed max d) as Hk.
    destruct (wal_open max d) as [d' [w| | |]]; cbn [fst st_disk] in *; unfold load_flushed; now rewrite Hk. }
  rewrite Hfl. lia.
Qed.

(* the tail of flush_batches: truncate_before(s); persist_flushed_seq(s) for a
   sequence number s that is in the log and not below the mark on disk *)
Theorem flush_disciplined st C wm tb s :
  Inv st C wm tb -> load_flushed (st_disk st) <= s -> s <= top_seq (st_disk st) ->
  hist_ok st (flush_ops s) = true.
Proof.
  intros HI Hlo Hhi. unfold flush_ops. destruct (0 <? s); [|reflexivity].
  cbn [hist_ok op_ok]. rewrite andb_true_r, (proj2 (N.leb_le _ _) Hhi). cbn [orb andb].
  (* truncating below s moves neither the mark nor the newest entry *)
  enough (load_flushed (st_disk (fst (step st (OTruncate s)))) = load_flushed (st_disk st) /\
          top_seq (st_disk (fst (step st (OTruncate s)))) = top_seq (st_disk st)) as [-> ->]
    by (apply andb_true_iff; split; now apply N.leb_le).
  destruct (st_wal st) as [w|] eqn:Ew; [|cbn [step]; now rewrite Ew].
  destruct (Inv_handle HI Ew) as (pre & es & fl & -> & Hids & Hlog).
  pose proof (lo_entries Hlog) as Hok.
  destruct (trunc_shape w pre es fl s Hids Hok (lo_asc Hlog)) as (pre' & D & Heq & Hids' & Hall & HD).
  cbn [step st_disk st_wal fst] in *. rewrite Heq. split; [reflexivity|].
  rewrite (top_seq_render pre _ es [] fl Hok torn_nil) in *.
  rewrite Hall in *. apply Forall_app in Hok.
  rewrite (top_seq_render pre' _ es [] fl (proj2 Hok) torn_nil).
  destruct (top_of_drop D (all_entries pre' es) s HD); lia.
Qed.

Definition ex_pl : bytes := [1; 2; 3].

(* crash inside the second append's header, reopen, append, crash, reopen *)
Definition ex_torn_history : list op :=
  [OOpen 1000; OAppend ex_pl; OCrashAppend [4; 5] 10; OOpen 1000; OAppend [6]; OCrash; OOpen 1000].

Example ex_torn_ok : hist_ok init ex_torn_history = true.
Proof. vm_compute. reflexivity. Qed.

Example ex_torn_reads :
  read_entries (st_disk (fst (run init ex_torn_history))) = [mkEntry 1 0 ex_pl; mkEntry 2 0 [6]].
Proof. vm_compute. reflexivity. Qed.

(* rotation into an empty segment is cut off completely, the flushed mark is
   persisted, the flushed segment is removed at the next start, crash, reopen:
   numbering continues above the mark *)
Definition ex_regress_history : list op :=
  [OOpen 60; OAppend ex_pl; OAppend ex_pl; OCrashAppend ex_pl 0; OOpen 60; OPersist 2; OCrash;
   OOpen 60; OTruncate 3; OCrash; OOpen 60; OAppend ex_pl].

Example ex_regress_ok : hist_ok init ex_regress_history = true.
Proof. vm_compute. reflexivity. Qed.

Example ex_regress_trace :
  map assigned (snd (run init ex_regress_history)) =
  [None; Some (1, 0); Some (2, 0); Some (3, 0); None; None; None; None; None; None; None; Some (3, 2)] /\
  map fst (d_segs (st_disk (fst (run init ex_regress_history)))) = [2].
Proof. vm_compute. split; reflexivity. Qed.

(* The code before the two repairs (for the record).
   open as it was: the active segment is not cut back, and the next sequence
   number comes from the log alone. *)
Definition wal_open_legacy (max : N) (d : disk) : disk * outcome wal :=
  let segments := d_segs d in
  let id := match last_id segments with Some i => i | None => WAL_FIRST_SEGMENT_ID end in
  let segs1 := seg_touch id segments in
  let file := match seg_get id segs1 with Some b => b | None => [] end in
  let next := match last_seq_in segments with Some s => s + 1 | None => 1 end in
  (mkDisk segs1 (d_flushed d), Done (mkWal max id (lenN file) next)).

Definition legacy_open (st : state) (max : N) : state :=
  match wal_open_legacy max (st_disk st) with
  | (d', Done w) => mkState d' (Some w)
  | (d', _) => mkState d' None
  end.

(* an append acknowledged after a torn tail was unreadable at the next start,
   and its sequence number was handed out again *)
Theorem legacy_refuted_append_after_torn :
  let st1 := fst (run init [OOpen 1000; OAppend ex_pl; OCrashAppend [4; 5] 10]) in
  let st2 := legacy_open st1 1000 in
  let r := step st2 (OAppend [6]) in
  snd r = EvAck 2 [6] 0 /\
  read_entries (st_disk (fst r)) = [mkEntry 1 0 ex_pl] /\
  option_map w_next (st_wal (legacy_open (fst (step (fst r) OCrash)) 1000)) = Some 2.
Proof. vm_compute. repeat split; reflexivity. Qed.

(* an empty active segment left after the flushed segments were removed made
   numbering restart at 1, below the flushed mark *)
Theorem legacy_refuted_seq_regress :
  let st1 := fst (run init [OOpen 60; OAppend ex_pl; OAppend ex_pl; OCrashAppend ex_pl 0; OOpen 60;
                            OPersist 2; OCrash; OOpen 60; OTruncate 3; OCrash]) in
  load_flushed (st_disk st1) = 2 /\
  option_map w_next (st_wal (legacy_open st1 60)) = Some 1.
Proof. vm_compute. split; reflexivity. Qed.

Example ex_entry_ok : entry_ok (mkEntry 7 0 ex_pl).
Proof. repeat split; try reflexivity. repeat constructor. Qed.

(* a second entry cut one byte behind its header *)
Example ex_parse_torn :
  parse (enc_entries [mkEntry 7 0 ex_pl] ++ firstn 23 (enc_entry (mkEntry 8 0 [9; 9]))) = [mkEntry 7 0 ex_pl].
Proof. vm_compute. reflexivity. Qed.

(* the premises of appended_after_reopen_recoverable hold for: crash inside an
   append, reopen, append (acknowledged with 2), crash, reopen *)
Example ex_appended_premises :
  let h1 := [OOpen 1000; OAppend ex_pl; OCrashAppend [4; 5] 10; OOpen 1000] in
  let h2 := [OCrash; OOpen 1000] in
  hist_ok init (h1 ++ OAppend [6] :: h2) = true /\
  snd (step (fst (run init h1)) (OAppend [6])) = EvAck 2 [6] 0.
Proof. vm_compute. split; reflexivity. Qed.

(* the premises of flush_disciplined hold after two acknowledged appends *)
Example ex_flush_premises :
  let st := fst (run init [OOpen 60; OAppend ex_pl; OAppend ex_pl]) in
  load_flushed (st_disk st) <= 2 /\ 2 <= top_seq (st_disk st) /\ hist_ok st (flush_ops 2) = true.
Proof. split; [|split]; [apply N.leb_le.. |]; vm_compute; reflexivity. Qed.
