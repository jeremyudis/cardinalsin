(* Proofs/CacheProofs.v — C16: the tiered cache is transparent.

   Invariant (inv): every entry of L1 and of L2, and every byte string an
   in-flight reader carries between two of its steps, is the content the
   backing store holds under that key; every completed reader's result is the
   answer of the backing store at some moment between the reader's arrival
   and now.  It is preserved by every event: a step of any reader, an
   eviction of any entry of any tier, a new-object write.  Because the store
   is write-once (it only grows by appending keys that were absent) all of
   these facts are stable once established. *)
From CS Require Import Base.Prelude Base.AList Base.ListFacts Model.Cache.
Open Scope N_scope.

Section AL.
  Context {V : Type}.
  Implicit Types (l m : list (key * V)).

  Lemma aget_aset_hit k (v : V) l : aget N.eqb k (aset N.eqb k v l) = Some v.
  Proof. apply (aget_aset_same N.eqb Neqb_spec). Qed.
End AL.

Lemma set_nth_same {A} (x : A) l : forall i y, nth_error l i = Some y -> nth_error (set_nth i x l) i = Some x.
Proof.
  induction l as [|a r IH]; intros [|i] y H; cbn in *; try discriminate; [reflexivity|].
  exact (IH _ _ H).
Qed.
Arguments set_nth_same {A} x {l i y} _.

Lemma set_nth_other {A} (x : A) l : forall i j, i <> j -> nth_error (set_nth i x l) j = nth_error l j.
Proof.
  induction l as [|a r IH]; intros [|i] [|j] H; cbn; try reflexivity.
  - now contradiction H.
  - apply IH. intro E; apply H; now subst.
Qed.

Lemma Forall_set_nth {A} (P : A -> Prop) x l : forall i, Forall P l -> P x -> Forall P (set_nth i x l).
Proof.
  induction l as [|a r IH]; intros [|i] Hl Hx; cbn; inversion Hl; subst; constructor; auto.
Qed.

Lemma takeN_skipN_nat l : forall n,
  takeN n l = firstn (N.to_nat n) l /\ skipN n l = skipn (N.to_nat n) l.
Proof.
  induction l as [|x r IH]; intro n; cbn [takeN skipN].
  - now destruct (N.to_nat n).
  - destruct (N.eqb_spec n 0) as [->|Hn]; [now split|].
    replace (N.to_nat n) with (S (N.to_nat (N.pred n))) by lia.
    cbn [firstn skipn]. destruct (IH (N.pred n)) as [-> ->]. now split.
Qed.

Lemma slice_spec lo hi l :
  slice lo hi l = firstn (N.to_nat (hi - lo)) (skipn (N.to_nat lo) l).
Proof.
  unfold slice. rewrite (proj2 (takeN_skipN_nat l lo)). apply takeN_skipN_nat.
Qed.

Lemma lenN_length l : lenN l = N.of_nat (length l).
Proof. induction l as [|x r IH]; cbn [lenN length]; [reflexivity|]. rewrite IH. lia. Qed.

Definition prefix (a b : store) : Prop := exists c, b = a ++ c.

Lemma prefix_refl a : prefix a a.
Proof. exists []. now rewrite app_nil_r. Qed.

Lemma prefix_trans {a b c} : prefix a b -> prefix b c -> prefix a c.
Proof. intros [x ->] [y ->]. exists (x ++ y). now rewrite app_assoc. Qed.

Lemma prefix_antisym {a b} : prefix a b -> prefix b a -> a = b.
Proof.
  intros [x ->] [y Hy]. rewrite <- app_assoc, <- (app_nil_r a) in Hy at 1.
  apply app_inv_head in Hy. symmetry in Hy. apply app_eq_nil in Hy as [-> _]. now rewrite app_nil_r.
Qed.

Lemma aget_prefix {a b k o} : prefix a b -> aget N.eqb k a = Some o -> aget N.eqb k b = Some o.
Proof. intros [c ->]. apply (aget_app_l N.eqb). Qed.

Lemma aget_prefix_none {a b k} : prefix a b -> aget N.eqb k b = None -> aget N.eqb k a = None.
Proof.
  intros Hp Hb. destruct (aget N.eqb k a) as [o|] eqn:E; [|reflexivity].
  rewrite (aget_prefix Hp E) in Hb. discriminate.
Qed.

Lemma store_put_prefix st k o : prefix st (fst (store_put st k o)).
Proof.
  unfold store_put. destruct (aget N.eqb k st); cbn [fst].
  - apply prefix_refl.
  - now exists [(k, o)].
Qed.

(* write-once: a PUT never changes what an existing key holds *)
Lemma store_put_write_once st k o k' o' :
  aget N.eqb k' st = Some o' -> aget N.eqb k' (fst (store_put st k o)) = Some o'.
Proof. apply aget_prefix, store_put_prefix. Qed.

Lemma store_put_new st k o :
  aget N.eqb k st = None -> aget N.eqb k (fst (store_put st k o)) = Some o.
Proof.
  intro H. unfold store_put. rewrite H. cbn [fst].
  rewrite (aget_app_notin N.eqb Neqb_spec) by now apply (aget_none_notin N.eqb Neqb_spec).
  cbn [aget]. now rewrite N.eqb_refl.
Qed.

(* a read looks at the store under its own key only *)
Lemma get_opts_ext {a b k} o :
  aget N.eqb k a = aget N.eqb k b -> store_get_opts a k o = store_get_opts b k o.
Proof. unfold store_get_opts. now intros ->. Qed.

Lemma store_read_ext a b q :
  aget N.eqb (rkey q) a = aget N.eqb (rkey q) b -> store_read a q = store_read b q.
Proof. intro H. destruct q; cbn [store_read rkey] in *; now rewrite (get_opts_ext _ H). Qed.

Lemma store_read_grow {a b} q {o} :
  prefix a b -> aget N.eqb (rkey q) a = Some o -> store_read a q = store_read b q.
Proof. intros Hp Ha. apply store_read_ext. now rewrite Ha, (aget_prefix Hp Ha). Qed.

Lemma store_read_absent {st} q :
  aget N.eqb (rkey q) st = None -> store_read st q = Failed E_NOTFOUND.
Proof. intro H. rewrite (store_read_ext st [] q H). now destruct q. Qed.

Lemma get_default_present {st k o} :
  aget N.eqb k st = Some o -> store_get_opts st k default_opts = Done (whole_resp (o_data o)).
Proof. intro H. unfold store_get_opts. now rewrite H. Qed.

Lemma get_range_present {st k o} r :
  aget N.eqb k st = Some o ->
  store_get_opts st k (range_opts r) =
    match as_range r (lenN (o_data o)) with
    | None => Failed E_RANGE
    | Some (lo, hi) => Done (mkResp (slice lo hi (o_data o)) lo hi (lenN (o_data o)))
    end.
Proof. intro H. unfold store_get_opts. now rewrite H. Qed.

Lemma nobypass_default o : bypasses o = false -> o = default_opts.
Proof.
  destruct o as [r m nm md um v h]. unfold bypasses; cbn.
  destruct r; [discriminate|]. destruct m; [discriminate|]. destruct nm; [discriminate|].
  destruct md; [discriminate|]. destruct um; [discriminate|].
  destruct v; [discriminate|]. destruct h; [discriminate|reflexivity].
Qed.

Lemma cached_read_eq st q :
  uses_cache q = true -> store_read st q = store_get_opts st (rkey q) default_opts.
Proof.
  destruct q as [k|k o|k a b|k]; cbn [uses_cache store_read rkey]; try discriminate; [reflexivity|].
  intro H. rewrite (nobypass_default o); [reflexivity|]. now destruct (bypasses o).
Qed.

Lemma view_cached {st q x} :
  uses_cache q = true -> store_get_opts st (rkey q) default_opts = x ->
  view q (store_read st q) = match x with Failed e => Failed (E_WRAP e) | y => y end.
Proof. intros H <-. unfold view. now rewrite H, (cached_read_eq _ _ H). Qed.

Lemma view_bypass q x : uses_cache q = false -> view q x = x.
Proof. intro H. unfold view. now rewrite H. Qed.

Definition backed (st : store) (k : key) (b : bytes) : Prop :=
  exists o, aget N.eqb k st = Some o /\ o_data o = b.

Definition map_ok (st : store) (m : kvmap) : Prop :=
  forall k b, aget N.eqb k m = Some b -> backed st k b.

Definition l2_ok (st : store) (l2 : option kvmap) : Prop :=
  match l2 with Some m => map_ok st m | None => True end.

(* the two tiers hold nothing but what the store holds *)
Definition cache_ok (st : store) (l1 : kvmap) (l2 : option kvmap) : Prop :=
  map_ok st l1 /\ l2_ok st l2.

Definition exact_at (born st : store) (q : req) (r : outcome resp) : Prop :=
  exists mid, prefix born mid /\ prefix mid st /\ r = view q (store_read mid q).

Definition pc_ok (st born : store) (q : req) (p : pc) : Prop :=
  match p with
  | PStart | PL2 | PFetch => uses_cache q = true
  | PPromote b | PInsL2 b | PInsL1 b => uses_cache q = true /\ backed st (rkey q) b
  | PBypass => uses_cache q = false
  | PDone r => exact_at born st q r
  end.

Definition thread_ok (st : store) (t : thread) : Prop :=
  prefix (t_born t) st /\ pc_ok st (t_born t) (t_req t) (t_pc t).

Definition inv (s : sys) : Prop :=
  cache_ok (s_store s) (s_l1 s) (s_l2 s) /\ Forall (thread_ok (s_store s)) (s_threads s).

Lemma backed_grow {a b k x} : prefix a b -> backed a k x -> backed b k x.
Proof. intros Hp [o [Ho Hd]]. exists o. split; [exact (aget_prefix Hp Ho)|exact Hd]. Qed.

Lemma map_ok_grow {a b m} : prefix a b -> map_ok a m -> map_ok b m.
Proof. intros Hp H k x Hk. exact (backed_grow Hp (H k x Hk)). Qed.

Lemma exact_at_grow {born a b q r} : prefix a b -> exact_at born a q r -> exact_at born b q r.
Proof. intros Hp [mid [H1 [H2 H3]]]. exists mid. exact (conj H1 (conj (prefix_trans H2 Hp) H3)). Qed.

Lemma pc_ok_grow {a b born q p} : prefix a b -> pc_ok a born q p -> pc_ok b born q p.
Proof.
  intros Hp G. destruct p; cbn [pc_ok] in *;
    try exact G;                                            (* PStart, PL2, PFetch, PBypass: no store in sight *)
    try exact (conj (proj1 G) (backed_grow Hp (proj2 G))).  (* PPromote, PInsL2, PInsL1 *)
  (* PDone *) exact (exact_at_grow Hp G).
Qed.

Lemma thread_ok_grow {a b t} : prefix a b -> thread_ok a t -> thread_ok b t.
Proof. intros Hp [Hb Hpc]. exact (conj (prefix_trans Hb Hp) (pc_ok_grow Hp Hpc)). Qed.

Lemma map_ok_nil st : map_ok st [].
Proof. intros k b H. discriminate H. Qed.

Lemma map_ok_aset {st k b} : backed st k b -> forall m, map_ok st m -> map_ok st (aset N.eqb k b m).
Proof.
  intros Hb m H k' b'. rewrite (aget_aset_if N.eqb Neqb_spec). destruct (N.eqb_spec k' k) as [->|_].
  - intros [= <-]. exact Hb.
  - apply H.
Qed.

Lemma map_ok_adel {st} k m : map_ok st m -> map_ok st (adel N.eqb k m).
Proof.
  intros H k' b'. rewrite (aget_adel_if N.eqb Neqb_spec). destruct (N.eqb k' k); [discriminate|apply H].
Qed.

Lemma cache_ok_grow {a b l1 l2} : prefix a b -> cache_ok a l1 l2 -> cache_ok b l1 l2.
Proof. intros Hp [H1 H2]. split; [exact (map_ok_grow Hp H1)|]. destruct l2; [exact (map_ok_grow Hp H2)|exact I]. Qed.

(* either tier may be changed by anything that keeps map_ok: map_ok_aset, map_ok_adel *)
Lemma cache_ok_upd1 {st l1 l2 f} :
  (forall m, map_ok st m -> map_ok st (f m)) -> cache_ok st l1 l2 -> cache_ok st (f l1) l2.
Proof. intros Hf [H1 H2]. exact (conj (Hf _ H1) H2). Qed.

Lemma cache_ok_upd2 {st l1 l2 f} :
  (forall m, map_ok st m -> map_ok st (f m)) -> cache_ok st l1 l2 -> cache_ok st l1 (option_map f l2).
Proof. intros Hf [H1 H2]. split; [exact H1|]. destruct l2; [exact (Hf _ H2)|exact I]. Qed.

Lemma exact_now {born st q r} :
  prefix born st -> r = view q (store_read st q) -> exact_at born st q r.
Proof. intros Hp Hr. exists st. exact (conj Hp (conj (prefix_refl st) Hr)). Qed.

Lemma cached_exact {born st q b} :
  prefix born st -> uses_cache q = true -> backed st (rkey q) b ->
  exact_at born st q (Done (whole_resp b)).
Proof.
  intros Hb Hu [o [Ho <-]].
  exact (exact_now Hb (eq_sym (view_cached Hu (get_default_present Ho)))).
Qed.

Lemma fetched_backed {st k x} :
  store_get_opts st k default_opts = Done x -> backed st k (r_data x).
Proof.
  unfold store_get_opts. destruct (aget N.eqb k st) as [o|] eqn:Ho; [|discriminate].
  cbn. intros [= <-]. exists o. now split.
Qed.

(* pc values in the order a reader passes through them: a step lowers the rank *)
Definition rank (p : pc) : nat :=
  match p with
  | PStart => 5 | PL2 => 4 | PFetch => 3 | PInsL2 _ => 2
  | PInsL1 _ => 1 | PPromote _ => 1 | PBypass => 1 | PDone _ => 0
  end.

Lemma rank0_done p : rank p = 0%nat -> exists r, p = PDone r.
Proof. destruct p; cbn; try discriminate. intros _. now eexists. Qed.

Lemma rank_first_pc q : (rank (first_pc q) <= max_steps)%nat.
Proof. unfold first_pc, max_steps. destruct (uses_cache q); cbn; lia. Qed.

Lemma tstep_rank st l1 l2 q p : (rank (fst (fst (tstep st l1 l2 q p))) <= rank p - 1)%nat.
Proof.
  unfold tstep. destruct p; try (cbn; lia).
  - (* PStart *) destruct (aget N.eqb _ l1); cbn; lia.
  - (* PL2 *) destruct l2 as [m|]; [destruct (aget N.eqb _ m)|]; cbn; lia.
  - (* PFetch *) destruct (store_get_opts st _ _); cbn; lia.
Qed.

Lemma tstep_gen_rank miss st l1 l2 q p :
  (rank (fst (fst (tstep_gen miss st l1 l2 q p))) <= rank p - 1)%nat.
Proof.
  destruct miss; [destruct p|]; try apply tstep_rank.  (* what is not a lookup steps as in tstep *)
  - (* PStart, lookup empty: PL2 *) exact (le_n 4).
  - (* PL2, lookup empty: PFetch *) exact (le_n 3).
Qed.

(* what one step of a reader (born at `born`, asking q) has to leave behind *)
Definition step_ok (st born : store) (q : req) (x : pc * kvmap * option kvmap) : Prop :=
  let '(p', l1', l2') := x in cache_ok st l1' l2' /\ pc_ok st born q p'.

Lemma lookup1_ok {st born l1 l2 q} :
  cache_ok st l1 l2 -> prefix born st -> uses_cache q = true ->
  step_ok st born q (tstep st l1 l2 q PStart).
Proof.
  intros C Hb Hu. unfold tstep, cache_key. destruct (aget N.eqb (rkey q) l1) as [b|] eqn:E.
  - (* hit *) exact (conj C (cached_exact Hb Hu (proj1 C _ _ E))).
  - (* miss *) exact (conj C Hu).
Qed.

Lemma lookup2_ok {st born l1 l2 q} :
  cache_ok st l1 l2 -> uses_cache q = true -> step_ok st born q (tstep st l1 l2 q PL2).
Proof.
  intros C Hu. unfold tstep, cache_key.
  destruct l2 as [m|]; [destruct (aget N.eqb (rkey q) m) as [b|] eqn:E|].
  - (* hit *) exact (conj C (conj Hu (proj2 C _ _ E))).
  - (* miss *) exact (conj C Hu).
  - (* no L2 *) exact (conj C Hu).
Qed.

Lemma ins1_ok {st born l1 l2 q b} :
  cache_ok st l1 l2 -> prefix born st -> uses_cache q = true -> backed st (rkey q) b ->
  step_ok st born q (tstep st l1 l2 q (PInsL1 b)).
Proof. intros C Hb Hu Hk. exact (conj (cache_ok_upd1 (map_ok_aset Hk) C) (cached_exact Hb Hu Hk)). Qed.

Lemma fetch_ok {st born l1 l2 q} :
  cache_ok st l1 l2 -> prefix born st -> uses_cache q = true ->
  step_ok st born q (tstep st l1 l2 q PFetch).
Proof.
  intros C Hb Hu. unfold tstep.
  destruct (store_get_opts st (rkey q) default_opts) as [x|e| |] eqn:E;
    [(* found *) exact (conj C (conj Hu (fetched_backed E)))|..].
  (* Failed, Panic, Hang: the store's answer is the reader's result *)
  all: exact (conj C (exact_now Hb (eq_sym (view_cached Hu E)))).
Qed.

Lemma ins2_ok {st born l1 l2 q b} :
  cache_ok st l1 l2 -> uses_cache q = true -> backed st (rkey q) b ->
  step_ok st born q (tstep st l1 l2 q (PInsL2 b)).
Proof. intros C Hu Hk. exact (conj (cache_ok_upd2 (map_ok_aset Hk) C) (conj Hu Hk)). Qed.

Lemma bypass_ok {st born l1 l2 q} :
  cache_ok st l1 l2 -> prefix born st -> uses_cache q = false ->
  step_ok st born q (tstep st l1 l2 q PBypass).
Proof. intros C Hb Hu. exact (conj C (exact_now Hb (eq_sym (view_bypass q _ Hu)))). Qed.

Lemma tstep_inv {st born l1 l2 q p} :
  cache_ok st l1 l2 -> prefix born st -> pc_ok st born q p -> step_ok st born q (tstep st l1 l2 q p).
Proof.
  intros C Hb Hp. destruct p; cbn [pc_ok] in Hp.
  - (* PStart *) exact (lookup1_ok C Hb Hp).
  - (* PL2 *) exact (lookup2_ok C Hp).
  - (* PPromote: tstep does what it does at PInsL1 *) exact (ins1_ok C Hb (proj1 Hp) (proj2 Hp)).
  - (* PFetch *) exact (fetch_ok C Hb Hp).
  - (* PInsL2 *) exact (ins2_ok C (proj1 Hp) (proj2 Hp)).
  - (* PInsL1 *) exact (ins1_ok C Hb (proj1 Hp) (proj2 Hp)).
  - (* PBypass *) exact (bypass_ok C Hb Hp).
  - (* PDone *) exact (conj C Hp).
Qed.

(* PStart, PL2 and PFetch have the same pc_ok: a lookup answered "nothing" moves the reader
   on to the next of them and touches no tier *)
Lemma tstep_gen_inv miss {st born l1 l2 q p} :
  cache_ok st l1 l2 -> prefix born st -> pc_ok st born q p ->
  step_ok st born q (tstep_gen miss st l1 l2 q p).
Proof.
  intros C Hb Hp. destruct miss; [destruct p|]; try exact (tstep_inv C Hb Hp).
  - (* PStart, lookup empty: PL2 *) exact (conj C Hp).
  - (* PL2, lookup empty: PFetch *) exact (conj C Hp).
Qed.

Lemma run_cons e r s : run (e :: r) s = run r (apply_event s e).
Proof. reflexivity. Qed.

Lemma run_app a b s : run (a ++ b) s = run b (run a s).
Proof. apply fold_left_app. Qed.

Lemma first_pc_ok st q : thread_ok st (mkThread q st (first_pc q)).
Proof.
  split; [apply prefix_refl|]. cbn [t_pc t_req]. unfold first_pc.
  destruct (uses_cache q) eqn:E; exact E.
Qed.

Lemma do_step_inv miss s i : inv s -> inv (do_step miss s i).
Proof.
  intros [C T]. unfold do_step.
  destruct (nth_error (s_threads s) i) as [t|] eqn:E; [|exact (conj C T)].
  destruct (Forall_nth_error T E) as [Hb Hp].
  pose proof (tstep_gen_inv miss C Hb Hp) as G.
  destruct (tstep_gen miss _ _ _ _ _) as [[p' l1'] l2']. destruct G as [C' Hp'].
  refine (conj C' _). apply Forall_set_nth; [exact T|exact (conj Hb Hp')].
Qed.

Lemma apply_event_inv s e : inv s -> inv (apply_event s e).
Proof.
  intros [C T]. destruct e as [q|i|i|k|k|k o]; cbn [apply_event].
  - (* EStart *) exact (conj C (Forall_snoc _ _ _ T (first_pc_ok _ q))).
  - (* EStep *) exact (do_step_inv false s i (conj C T)).
  - (* EStepMiss *) exact (do_step_inv true s i (conj C T)).
  - (* EEvict1 *) exact (conj (cache_ok_upd1 (map_ok_adel k) C) T).
  - (* EEvict2 *) exact (conj (cache_ok_upd2 (map_ok_adel k) C) T).
  - (* EPut *) pose proof (store_put_prefix (s_store s) k o) as Hp.
    exact (conj (cache_ok_grow Hp C) (Forall_impl _ (fun t => thread_ok_grow Hp) T)).
Qed.

Lemma run_inv sched {s} : inv s -> inv (run sched s).
Proof. apply fold_left_inv. intros a e _. apply apply_event_inv. Qed.

Lemma init_inv st l2_on : inv (init st l2_on).
Proof.
  split; [|constructor]. split; [apply map_ok_nil|].
  cbn [init s_l2]. destruct l2_on; [apply map_ok_nil|exact I].
Qed.

Theorem cached_subset_store sched st0 l2_on :
  let s := run sched (init st0 l2_on) in
  (forall k b, aget N.eqb k (s_l1 s) = Some b ->
     exists o, aget N.eqb k (s_store s) = Some o /\ o_data o = b) /\
  (forall m k b, s_l2 s = Some m -> aget N.eqb k m = Some b ->
     exists o, aget N.eqb k (s_store s) = Some o /\ o_data o = b).
Proof.
  intro s. destruct (run_inv sched (init_inv st0 l2_on)) as [[H1 H2] _]. fold s in H1, H2.
  split; [exact H1|]. intros m k b Hm. rewrite Hm in H2. exact (H2 k b).
Qed.

Lemma do_step_store miss s i : s_store (do_step miss s i) = s_store s.
Proof.
  unfold do_step. destruct (nth_error (s_threads s) i); [|reflexivity].
  now destruct (tstep_gen _ _ _ _ _ _) as [[p' l1'] l2'].
Qed.

Lemma apply_event_store s e : prefix (s_store s) (s_store (apply_event s e)).
Proof.
  destruct e as [q|i|i|k|k|k o]; cbn [apply_event s_store]; rewrite ?do_step_store;
    auto using prefix_refl, store_put_prefix.
Qed.

Lemma run_store sched : forall s, prefix (s_store s) (s_store (run sched s)).
Proof.
  induction sched as [|e r IH]; intro s; [apply prefix_refl|].
  exact (prefix_trans (apply_event_store s e) (IH _)).
Qed.

Definition is_step (i : nat) (e : event) : bool :=
  match e with EStep j | EStepMiss j => Nat.eqb i j | _ => false end.

Definition steps_of (i : nat) (sched : list event) : nat := length (filter (is_step i) sched).

Lemma steps_of_cons i e r :
  steps_of i (e :: r) = ((if is_step i e then 1 else 0) + steps_of i r)%nat.
Proof. unfold steps_of. cbn [filter]. now destruct (is_step i e). Qed.

Lemma steps_of_app i a b : steps_of i (a ++ b) = (steps_of i a + steps_of i b)%nat.
Proof. unfold steps_of. now rewrite filter_app, app_length. Qed.

(* One reader along a run: it keeps its slot, its request and its arrival
   snapshot, and each of its own steps brings it closer to completion. *)
Lemma do_step_thread miss s j {i q born p} :
  nth_error (s_threads s) i = Some (mkThread q born p) ->
  exists p', nth_error (s_threads (do_step miss s j)) i = Some (mkThread q born p') /\
             (rank p' <= rank p - (if Nat.eqb i j then 1 else 0))%nat.
Proof.
  intro H. unfold do_step. destruct (Nat.eqb_spec i j) as [<-|Hne].
  - rewrite H. cbn [t_req t_born t_pc].
    pose proof (tstep_gen_rank miss (s_store s) (s_l1 s) (s_l2 s) q p) as R.
    destruct (tstep_gen _ _ _ _ _ _) as [[p' l1'] l2'].
    exists p'. split; [exact (set_nth_same _ H)|exact R].
  - exists p. split; [|lia]. destruct (nth_error (s_threads s) j); [|exact H].
    destruct (tstep_gen _ _ _ _ _ _) as [[p' l1'] l2']. cbn [s_threads].
    rewrite set_nth_other by exact (not_eq_sym Hne). exact H.
Qed.

Lemma apply_event_thread s e {i q born p} :
  nth_error (s_threads s) i = Some (mkThread q born p) ->
  exists p', nth_error (s_threads (apply_event s e)) i = Some (mkThread q born p') /\
             (rank p' <= rank p - (if is_step i e then 1 else 0))%nat.
Proof.
  intro H. destruct e as [q'|j|j|k|k|k o]; cbn [apply_event is_step s_threads];
    try (exists p; split; [exact H|lia]).
  - exists p. split; [|lia]. rewrite nth_error_app1; [exact H|]. apply nth_error_Some. now rewrite H.
  - exact (do_step_thread false s j H).
  - exact (do_step_thread true s j H).
Qed.

Lemma run_thread sched : forall {s i q born p},
  nth_error (s_threads s) i = Some (mkThread q born p) ->
  exists p', nth_error (s_threads (run sched s)) i = Some (mkThread q born p') /\
             (rank p' <= rank p - steps_of i sched)%nat.
Proof.
  induction sched as [|e r IH]; intros s i q born p H.
  - exists p. split; [exact H|]. cbn. lia.
  - destruct (apply_event_thread s e H) as [p1 [H1 R1]]. destruct (IH _ _ _ _ _ H1) as [p2 [H2 R2]].
    exists p2. split; [exact H2|]. rewrite steps_of_cons. lia.
Qed.

Lemma reader_after s1 q post :
  exists p, nth_error (s_threads (run post (apply_event s1 (EStart q)))) (length (s_threads s1))
            = Some (mkThread q (s_store s1) p) /\
            (rank p <= rank (first_pc q) - steps_of (length (s_threads s1)) post)%nat.
Proof.
  apply run_thread. cbn [apply_event s_threads].
  rewrite nth_error_app2, Nat.sub_diag; [reflexivity|apply Nat.le_refl].
Qed.

Theorem reader_exact {s1} q post {r} :
  inv s1 ->
  let s := run post (apply_event s1 (EStart q)) in
  result_of s (length (s_threads s1)) = Some r -> exact_at (s_store s1) (s_store s) q r.
Proof.
  intros Hinv s Hr. destruct (reader_after s1 q post) as [p [Ht _]]. fold s in Ht.
  unfold result_of in Hr. rewrite Ht in Hr. cbn [t_pc] in Hr.
  destruct p; try discriminate. injection Hr as ->.
  assert (Hs : inv s) by apply run_inv, apply_event_inv, Hinv.
  exact (proj2 (Forall_nth_error (proj2 Hs) Ht)).
Qed.

(* A reader that arrives after the schedule `pre` with request q, in ANY
   continuation `post` (steps of any readers in any order, evictions, new
   readers, new-object writes): if it has completed, its result is the
   backing store's own answer to q (error kinds re-wrapped on the cached
   path) on a store snapshot between its arrival and now. *)
Theorem transparent pre q post st0 l2_on :
  let s1 := run pre (init st0 l2_on) in
  let s := run post (apply_event s1 (EStart q)) in
  forall r, result_of s (length (s_threads s1)) = Some r ->
  exists mid, prefix (s_store s1) mid /\ prefix mid (s_store s) /\
              r = view q (store_read mid q).
Proof. intros s1 s r. exact (reader_exact q post (run_inv pre (init_inv st0 l2_on))). Qed.

Lemma exact_at_same {st q r} : exact_at st st q r -> r = view q (store_read st q).
Proof. intros [mid [P1 [P2 ->]]]. now rewrite (prefix_antisym P1 P2). Qed.

Lemma exact_at_existing {born st q r o} :
  exact_at born st q r -> aget N.eqb (rkey q) born = Some o ->
  r = view q (store_read st q) /\ r = view q (store_read born q).
Proof.
  intros [mid [P1 [P2 ->]]] Ho.
  rewrite <- (store_read_grow q P2 (aget_prefix P1 Ho)), (store_read_grow q P1 Ho). now split.
Qed.

Lemma exact_at_absent {born st q r} :
  exact_at born st q r -> aget N.eqb (rkey q) st = None -> r = view q (Failed E_NOTFOUND).
Proof. intros [mid [_ [P2 ->]]] Hn. now rewrite (store_read_absent q (aget_prefix_none P2 Hn)). Qed.

Lemma exact_at_done {born st q x} :
  exact_at born st q (Done x) ->
  exists o, aget N.eqb (rkey q) st = Some o /\ Done x = view q (store_read st q).
Proof.
  intros [mid [_ [P2 Hx]]]. destruct (aget N.eqb (rkey q) mid) as [o|] eqn:E.
  - exists o. split; [exact (aget_prefix P2 E)|]. now rewrite <- (store_read_grow q P2 E).
  - rewrite (store_read_absent q E) in Hx. unfold view in Hx. destruct (uses_cache q); discriminate.
Qed.

(* the object existed when the reader arrived: the result is the answer of
   the store as it is now (and as it was at arrival) — whatever was written,
   evicted or promoted in between *)
Theorem transparent_existing pre q post st0 l2_on :
  let s1 := run pre (init st0 l2_on) in
  let s := run post (apply_event s1 (EStart q)) in
  forall r o, result_of s (length (s_threads s1)) = Some r ->
  aget N.eqb (rkey q) (s_store s1) = Some o ->
  r = view q (store_read (s_store s) q) /\ r = view q (store_read (s_store s1) q).
Proof. intros s1 s r o Hr. exact (exact_at_existing (transparent pre q post st0 l2_on r Hr)). Qed.

(* a read of a key the store does not hold (even now) fails with NotFound; it
   is never answered from anything cached *)
Theorem absent_fails pre q post st0 l2_on :
  let s1 := run pre (init st0 l2_on) in
  let s := run post (apply_event s1 (EStart q)) in
  forall r, result_of s (length (s_threads s1)) = Some r ->
  aget N.eqb (rkey q) (s_store s) = None ->
  r = view q (Failed E_NOTFOUND).
Proof. intros s1 s r Hr. exact (exact_at_absent (transparent pre q post st0 l2_on r Hr)). Qed.

Theorem whole_exact pre k post st0 l2_on :
  let s1 := run pre (init st0 l2_on) in
  let s := run post (apply_event s1 (EStart (QGet k))) in
  forall x, result_of s (length (s_threads s1)) = Some (Done x) ->
  exists o, aget N.eqb k (s_store s) = Some o /\ x = whole_resp (o_data o).
Proof.
  intros s1 s x Hr.
  destruct (exact_at_done (transparent pre (QGet k) post st0 l2_on _ Hr)) as [o [Ho Hx]].
  exists o. split; [exact Ho|].
  rewrite (view_cached (q := QGet k) eq_refl (get_default_present Ho)) in Hx. now injection Hx.
Qed.

Theorem range_exact pre k a b post st0 l2_on :
  let s1 := run pre (init st0 l2_on) in
  let s := run post (apply_event s1 (EStart (QGetRange k a b))) in
  forall x, result_of s (length (s_threads s1)) = Some (Done x) ->
  exists o lo hi, aget N.eqb k (s_store s) = Some o /\
    as_range (RBounded a b) (lenN (o_data o)) = Some (lo, hi) /\
    x = mkResp (slice lo hi (o_data o)) lo hi (lenN (o_data o)).
Proof.
  intros s1 s x Hr.
  destruct (exact_at_done (transparent pre (QGetRange k a b) post st0 l2_on _ Hr)) as [o [Ho Hx]].
  rewrite (view_bypass (QGetRange k a b) _ eq_refl) in Hx. cbn [store_read] in Hx.
  rewrite (get_range_present _ Ho) in Hx.
  destruct (as_range (RBounded a b) (lenN (o_data o))) as [[lo hi]|] eqn:E; [|discriminate].
  exists o, lo, hi. split; [exact Ho|]. split; [exact E|]. now injection Hx.
Qed.

(* whatever else the schedule does: a reader that gets max_steps steps of its own has completed *)
Theorem reader_completes s1 q post :
  (max_steps <= steps_of (length (s_threads s1)) post)%nat ->
  exists r, result_of (run post (apply_event s1 (EStart q))) (length (s_threads s1)) = Some r.
Proof.
  intro Hn. destruct (reader_after s1 q post) as [p [Ht R]].
  destruct (rank0_done p) as [r ->]; [pose proof (rank_first_pc q); lia|].
  exists r. unfold result_of. now rewrite Ht.
Qed.

Theorem reads_complete pre q post st0 l2_on :
  let s1 := run pre (init st0 l2_on) in
  let s := run post (apply_event s1 (EStart q)) in
  (max_steps <= steps_of (length (s_threads s1)) post)%nat ->
  exists r, result_of s (length (s_threads s1)) = Some r.
Proof. intros s1 s. apply reader_completes. Qed.

(* The reference semantics of a sequential history, with no cache in it: every read is answered
   by the bare store as the PUTs before it have made it ... *)
Fixpoint spec_results (h : list sop) (st : store) : list (option (outcome resp)) :=
  match h with
  | [] => []
  | OPut k o :: r => spec_results r (fst (store_put st k o))
  | ORead q _ :: r => Some (view q (store_read st q)) :: spec_results r st
  end.

(* ... and the store ends up as the PUTs alone make it *)
Fixpoint spec_store (h : list sop) (st : store) : store :=
  match h with
  | [] => st
  | OPut k o :: r => spec_store r (fst (store_put st k o))
  | ORead _ _ :: r => spec_store r st
  end.

Lemma evicts_store l : forall s, s_store (run (map evict_event l) s) = s_store s.
Proof.
  induction l as [|e r IH]; intro s; [reflexivity|].
  rewrite map_cons, run_cons, IH. now destruct e.
Qed.

Lemma step_store s i (m : bool) :
  s_store (apply_event s (if m then EStepMiss i else EStep i)) = s_store s.
Proof. destruct m; apply do_step_store. Qed.

Lemma read_sched_store i f : forall ev s, s_store (run (read_sched i f ev) s) = s_store s.
Proof.
  induction f as [|f IH]; intros ev s; [reflexivity|]. cbn [read_sched].
  now rewrite run_app, run_cons, IH, step_store, evicts_store.
Qed.

Lemma evicts_steps i l : steps_of i (map evict_event l) = 0%nat.
Proof. induction l as [|e r IH]; [reflexivity|]. rewrite map_cons, steps_of_cons, IH. now destruct e. Qed.

Lemma read_sched_steps i f : forall ev, steps_of i (read_sched i f ev) = f.
Proof.
  induction f as [|f IH]; intro ev; [reflexivity|]. cbn [read_sched].
  rewrite steps_of_app, evicts_steps, steps_of_cons, IH.
  destruct (snd (hd ([], false) ev)); cbn [is_step]; now rewrite Nat.eqb_refl.
Qed.

Lemma seq_read_exact {s} q ev :
  inv s ->
  let i := length (s_threads s) in
  let s' := run (sop_sched i (ORead q ev)) s in
  s_store s' = s_store s /\ result_of s' i = Some (view q (store_read (s_store s) q)).
Proof.
  intro Hinv. cbv zeta. cbn [sop_sched]. rewrite run_cons.
  pose proof (read_sched_store (length (s_threads s)) max_steps ev (apply_event s (EStart q))) as Hst.
  cbn [apply_event s_store] in Hst. split; [exact Hst|].
  destruct (reader_completes s q (read_sched (length (s_threads s)) max_steps ev)) as [r Hr];
    [now rewrite read_sched_steps|].
  rewrite Hr. f_equal. apply exact_at_same. rewrite <- Hst at 2. exact (reader_exact q _ Hinv Hr).
Qed.

Lemma seq_run_exact h : forall s acc,
  inv s ->
  snd (seq_run h s acc) = rev acc ++ spec_results h (s_store s) /\
  s_store (fst (seq_run h s acc)) = spec_store h (s_store s).
Proof.
  induction h as [|o r IH]; intros s acc Hinv; cbn [seq_run spec_results spec_store].
  - cbn [fst snd]. now rewrite app_nil_r.
  - destruct o as [k ob|q ev].
    + exact (IH _ acc (run_inv _ Hinv)).
    + destruct (seq_read_exact q ev Hinv) as [Hst Hres].
      set (s' := run (sop_sched (length (s_threads s)) (ORead q ev)) s) in *.
      destruct (IH s' (result_of s' (length (s_threads s)) :: acc) (run_inv _ Hinv)) as [E1 E2].
      rewrite Hst in E1, E2. split; [|exact E2].
      rewrite E1, Hres. cbn [rev]. now rewrite <- app_assoc.
Qed.

(* sequential histories: every read completes and returns exactly what the
   backing store answers at that point of the history, for every choice of
   evictions before every step *)
Theorem transparent_sequential h st0 l2_on :
  snd (seq_run h (init st0 l2_on) []) = spec_results h st0 /\
  s_store (fst (seq_run h (init st0 l2_on) [])) = spec_store h st0.
Proof. exact (seq_run_exact h (init st0 l2_on) [] (init_inv st0 l2_on)). Qed.

(* cache_key is the identity in the model (the Rust key is the path's own string) *)
Lemma cache_key_inj k1 k2 : cache_key k1 = cache_key k2 -> k1 = k2.
Proof. exact (fun H => H). Qed.

(* non-vacuity: concrete runs in which every tier answers, entries are
   evicted and promoted, readers race on one key with a writer, and the
   hypotheses of the theorems above are met                              *)

Definition ex_obj1 : obj := mkObj [10; 20; 30; 40] 7 100%Z.
Definition ex_obj2 : obj := mkObj [99] 8 200%Z.

(* fetch, L1 hit, L2 hit with promotion after an L1 eviction, fetch again after both were evicted *)
Definition ex_sched_tiers : list event :=
  [EStart (QGet 1); EStep 0; EStep 0; EStep 0; EStep 0; EStep 0;
   EStart (QGet 1); EStep 1;
   EEvict1 1; EStart (QGet 1); EStep 2; EStep 2; EStep 2;
   EEvict1 1; EEvict2 1; EStart (QGet 1); EStep 3; EStep 3; EStep 3; EStep 3; EStep 3].

Example ex_tiers :
  let s := run ex_sched_tiers (init [(1, ex_obj1); (12, ex_obj2)] true) in
  map (result_of s) [0; 1; 2; 3]%nat =
    [Some (Done (whole_resp [10; 20; 30; 40])); Some (Done (whole_resp [10; 20; 30; 40]));
     Some (Done (whole_resp [10; 20; 30; 40])); Some (Done (whole_resp [10; 20; 30; 40]))]
  /\ in_l1 s 1 = true /\ in_l2 s 1 = true /\ in_l1 s 12 = false.
Proof. vm_compute. repeat split. Qed.

(* reader 1 completes with a single step of its own: an L1 hit *)
Example ex_tiers_l1_hit :
  result_of (run (firstn 8 ex_sched_tiers) (init [(1, ex_obj1)] true)) 1%nat
  = Some (Done (whole_resp [10; 20; 30; 40])).
Proof. vm_compute. reflexivity. Qed.

(* two readers miss on the same absent key; a writer creates it between the
   first reader's fetch and the second reader's fetch: the first fails (and
   caches nothing), the second returns the new bytes, a later read of another
   absent key still fails and a ranged read is the slice *)
Definition ex_sched_race : list event :=
  [EStart (QGet 5); EStart (QGet 5);
   EStep 0; EStep 0; EStep 1; EStep 1;          (* both parked in front of the fetch *)
   EStep 0;                                      (* reader 0 fetches: absent *)
   EPut 5 ex_obj1;
   EStep 1; EStep 1; EStep 1;                    (* reader 1 fetches, inserts *)
   EStart (QGet 50); EStep 2; EStep 2; EStep 2;  (* another absent key *)
   EStart (QGetRange 5 1 3); EStep 3;
   EStart (QGetRange 50 1 3); EStep 4;
   EStart (QGet 5); EStep 5].

Example ex_race :
  let s := run ex_sched_race (init [] false) in
  map (result_of s) [0; 1; 2; 3; 4; 5]%nat =
    [Some (Failed (E_WRAP E_NOTFOUND)); Some (Done (whole_resp [10; 20; 30; 40]));
     Some (Failed (E_WRAP E_NOTFOUND)); Some (Done (mkResp [20; 30] 1 3 4));
     Some (Failed E_NOTFOUND); Some (Done (whole_resp [10; 20; 30; 40]))].
Proof. vm_compute. reflexivity. Qed.

(* conditional reads are decided by the backing store even when the object is cached *)
Definition ex_unmod (d : Z) : getopts := mkOpts None None None None (Some d) false false.
Definition ex_ifmatch (l : list N) : getopts := mkOpts None (Some (ETags l)) None None None false false.

Example ex_conditional :
  let s := run [EStart (QGet 1); EStep 0; EStep 0; EStep 0; EStep 0; EStep 0;
                EStart (QGetOpts 1 (ex_unmod 50)); EStep 1;
                EStart (QGetOpts 1 (ex_unmod 100)); EStep 2;
                EStart (QGetOpts 1 (ex_ifmatch [3; 7])); EStep 3;
                EStart (QGetOpts 1 (ex_ifmatch [3])); EStep 4;
                EStart (QGetOpts 1 default_opts); EStep 5;
                EStart (QHead 1); EStep 6]
               (init [(1, ex_obj1)] false) in
  map (result_of s) [1; 2; 3; 4; 5; 6]%nat =
    [Some (Failed E_PRECOND); Some (Done (whole_resp [10; 20; 30; 40]));
     Some (Done (whole_resp [10; 20; 30; 40])); Some (Failed E_PRECOND);
     Some (Done (whole_resp [10; 20; 30; 40])); Some (Done (mkResp [] 0 0 4))].
Proof. vm_compute. reflexivity. Qed.

(* a sequential history with evictions before individual steps *)
Definition ex_history : list sop :=
  [ORead (QGet 1) [];
   OPut 1 ex_obj1;
   ORead (QGet 1) [([Ev1 1], false); ([], true); ([], false); ([Ev2 1], false)];
   OPut 1 ex_obj2;                                   (* rejected: write-once *)
   ORead (QGet 1) [([Ev1 1], false)];
   ORead (QGet 1) [([], true); ([], true)];          (* both lookups come back empty: fetched again *)
   ORead (QGetRange 1 2 9) [];
   ORead (QGetOpts 2 default_opts) []].

Example ex_sequential :
  snd (seq_run ex_history (init [] true) []) =
    [Some (Failed (E_WRAP E_NOTFOUND)); Some (Done (whole_resp [10; 20; 30; 40]));
     Some (Done (whole_resp [10; 20; 30; 40])); Some (Done (whole_resp [10; 20; 30; 40]));
     Some (Done (mkResp [30; 40] 2 4 4)); Some (Failed (E_WRAP E_NOTFOUND))].
Proof. vm_compute. reflexivity. Qed.

(* a lookup that comes back empty does not remove the entry: L2 misses for
   reader 1 (EStepMiss) and serves reader 2 without any insert in between *)
Example ex_transient_miss :
  let s := run [EStart (QGet 1); EStep 0; EStep 0; EStep 0; EStep 0; EStep 0;
                EEvict1 1;
                EStart (QGet 1); EStep 1; EStepMiss 1;          (* parked in front of the fetch *)
                EStart (QGet 1); EStepMiss 2; EStep 2; EStep 2; (* L2 hit, promoted *)
                EStep 1; EStep 1; EStep 1]
               (init [(1, ex_obj1)] true) in
  map (result_of s) [0; 1; 2]%nat =
    [Some (Done (whole_resp [10; 20; 30; 40])); Some (Done (whole_resp [10; 20; 30; 40]));
     Some (Done (whole_resp [10; 20; 30; 40]))].
Proof. vm_compute. reflexivity. Qed.
