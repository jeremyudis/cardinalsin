(* Proofs/QueryBindProofs.v — C10: under the protocol the code follows now
   (the plan is created while the registration lock is held) every query
   captures exactly its own chunk set, for any number of queries and any
   interleaving of their steps; under the former protocol it does not. *)
From CS Require Import Base.Prelude Base.AList Base.ListFacts Model.QueryBind.

Lemma eqb_list_eq : forall a b, eqb_list a b = true -> a = b.
Proof.
  induction a as [|x a IH]; intros [|y b] H; cbn [eqb_list] in H; try discriminate.
  - reflexivity.
  - apply andb_prop in H. destruct H as [H1 H2]. apply N.eqb_eq in H1. subst y.
    rewrite (IH b H2). reflexivity.
Qed.

Definition own (sets : list (qid * chunkset)) (i : qid) (o : option chunkset) : Prop :=
  forall c, o = Some c -> c = sel sets i.

(* what query i needs of the shared state when step number pc of proto_fixed
   is its next: it holds the lock from Register to Unlock, and from Pause to
   Unlock the table is bound to its own chunk set *)
Definition phase (sets : list (qid * chunkset)) (st : state) (i : qid) (pc : nat) : Prop :=
  match nth_error proto_fixed pc with
  | Some KRegister => lock st = Some i
  | Some (KPause | KPlan | KUnlock) => lock st = Some i /\ tbl st = sel sets i
  | Some (KLock | KExec) | None => True
  end.

Definition qinv (sets : list (qid * chunkset)) (st : state) (i : qid) (q : qstate) : Prop :=
  phase sets st i (q_pc q) /\ own sets i (q_cap q) /\ own sets i (q_res q).

(* the first clause is what the early return of register ("these paths are
   bound already") relies on, see register_tbl *)
Definition inv (sets : list (qid * chunkset)) (st : state) : Prop :=
  tbl st = paths st /\
  forall i q, aget N.eqb i (qs st) = Some q -> qinv sets st i q.

Lemma inv_init_bound : forall sets t ids, inv sets (init_bound t ids).
Proof.
  intros sets t ids. split; [reflexivity|].
  intros i q Hget. unfold init_bound in Hget. cbn [qs] in Hget.
  assert (Hq : q = init_q).
  { induction ids as [|k r IH]; cbn [map aget] in Hget; [discriminate|].
    destruct (N.eqb i k); [injection Hget as <-; reflexivity | exact (IH Hget)]. }
  subst q. repeat split; intros c H; discriminate.
Qed.

Lemma inv_captured : forall sets st i c, inv sets st -> captured st i = Some c -> c = sel sets i.
Proof.
  intros sets st i c [_ Hall] H. unfold captured in H.
  destruct (aget N.eqb i (qs st)) as [q|] eqn:Hq; [|discriminate].
  destruct (Hall i q Hq) as [_ [Hc _]]. exact (Hc c H).
Qed.

Lemma inv_result : forall sets st i c, inv sets st -> result st i = Some c -> c = sel sets i.
Proof.
  intros sets st i c [_ Hall] H. unfold result in H.
  destruct (aget N.eqb i (qs st)) as [q|] eqn:Hq; [|discriminate].
  destruct (Hall i q Hq) as [_ [_ Hr]]. exact (Hr c H).
Qed.

Lemma register_tbl : forall s st, tbl st = paths st ->
  tbl (register s st) = s /\ paths (register s st) = s /\
  lock (register s st) = lock st /\ qs (register s st) = qs st.
Proof.
  intros s st Htp. unfold register. destruct s as [|x r].
  - cbn. repeat split; reflexivity.
  - destruct (eqb_list (paths st) (x :: r)) eqn:E.
    + apply eqb_list_eq in E. repeat split; congruence.
    + cbn. repeat split; reflexivity.
Qed.

(* qinv looks at the state only through the lock holder and the bound set, and
   constrains them only while the query holds the lock: it survives every
   change that leaves a holder its lock and its binding *)
Lemma qinv_frame : forall sets st st' j q,
  (lock st = Some j -> lock st' = Some j /\ tbl st' = tbl st) ->
  qinv sets st j q -> qinv sets st' j q.
Proof.
  intros sets st st' j q Hf [Hph Hown]. split; [|exact Hown].
  assert (Hb : lock st = Some j /\ tbl st = sel sets j -> lock st' = Some j /\ tbl st' = sel sets j)
    by (intros [Hl Ht]; destruct (Hf Hl) as [Hl' Ht']; split; congruence).
  unfold phase in *.
  destruct (nth_error proto_fixed (q_pc q)) as [[| | | | |]|]; try exact I; try exact (Hb Hph).
  (* what remains is KRegister, which asks for the lock only *)
  exact (proj1 (Hf Hph)).
Qed.

(* every move of query i has this shape: lock and binding change to those of
   [st1], then i's own record is replaced *)
Lemma inv_set_q : forall sets st st1 i q',
  inv sets st -> qs st1 = qs st -> tbl st1 = paths st1 ->
  (forall j, j <> i -> lock st = Some j -> lock st1 = Some j /\ tbl st1 = tbl st) ->
  qinv sets st1 i q' ->
  inv sets (set_q i q' st1).
Proof.
  intros sets st st1 i q' [_ Hall] Hqs Htp Hframe Hown. split; [exact Htp|].
  intros j qj Hj. cbn [set_q qs] in Hj. rewrite Hqs in Hj.
  destruct (N.eq_dec j i) as [->|Hne].
  - rewrite (aget_aset_same N.eqb Neqb_spec) in Hj. injection Hj as <-. exact Hown.
  - rewrite (aget_aset_other N.eqb Neqb_spec) in Hj by exact Hne.
    apply (qinv_frame sets st); [exact (Hframe j Hne) | exact (Hall j qj Hj)].
Qed.

(* a query that ends without a result (failed binding, dropped future) leaves
   the invariant intact: the binding is untouched and its lock is released *)
Lemma abort_inv : forall sets st i, inv sets st -> inv sets (abort proto_fixed st i).
Proof.
  intros sets st i Hinv. unfold abort.
  destruct (aget N.eqb i (qs st)) as [q|] eqn:Hq; [|exact Hinv].
  destruct (proj2 Hinv i q Hq) as [_ Hown].
  apply (inv_set_q sets st); [exact Hinv | reflexivity | exact (proj1 Hinv) | | exact (conj I Hown)].
  intros j Hne Hl. cbn [lock tbl]. rewrite Hl, (proj2 (N.eqb_neq j i) Hne). auto.
Qed.

(* one step of any query preserves the invariant: in each case the state is
   changed as [inv_set_q] allows, and the phase of the next step is met *)
Lemma step_inv : forall faults sets st i, inv sets st -> inv sets (step faults proto_fixed sets st i).
Proof.
  intros faults sets st i Hinv. pose proof Hinv as [Htp Hall]. unfold step.
  destruct (aget N.eqb i (qs st)) as [[pc cap res]|] eqn:Hq; [|exact Hinv].
  destruct (Hall i _ Hq) as [Hph [Hcap Hres]]. cbn [q_pc q_cap q_res] in *.
  destruct pc as [|[|[|[|[|[|n]]]]]]; cbn [nth_error proto_fixed phase] in *.
  - (* Lock: taken only when nobody holds it *)
    destruct (lock st) as [h|] eqn:Hl; [exact Hinv|].
    apply (inv_set_q sets st); [exact Hinv | reflexivity | exact Htp | rewrite Hl; discriminate |].
    exact (conj eq_refl (conj Hcap Hres)).
  - (* Register: i holds the lock, the binding becomes its own *)
    destruct (memN i faults && reads_files (sel sets i) st); [apply abort_inv; exact Hinv|].
    destruct (register_tbl (sel sets i) st Htp) as [Rt [Rp [Rl Rq]]].
    apply (inv_set_q sets st); [exact Hinv | exact Rq | congruence | intros j Hne Hl; congruence |].
    split; [split; congruence | exact (conj Hcap Hres)].
  - (* Pause *)
    apply (inv_set_q sets st); [exact Hinv | reflexivity | exact Htp | auto |].
    exact (conj Hph (conj Hcap Hres)).
  - (* Plan: the provider bound right now is the query's own *)
    apply (inv_set_q sets st); [exact Hinv | reflexivity | exact Htp | auto |].
    split; [exact Hph | split; [|exact Hres]]. intros c Hc. injection Hc as <-. apply Hph.
  - (* Unlock: i held the lock *)
    destruct Hph as [Hmine _].
    apply (inv_set_q sets st); [exact Hinv | reflexivity | exact Htp | intros j Hne Hl; congruence |].
    exact (conj I (conj Hcap Hres)).
  - (* Exec: the scan reads the captured provider *)
    apply (inv_set_q sets st); [exact Hinv | reflexivity | exact Htp | auto |].
    exact (conj I (conj Hcap Hcap)).
  - (* finished: [nth_error [] n] reduces once n is a constructor *)
    destruct n; exact Hinv.
Qed.

Lemma run_ev_inv : forall faults sets evs st, inv sets st -> inv sets (run_ev faults proto_fixed sets evs st).
Proof.
  intros faults sets evs. apply (fold_left_inv (inv sets)).
  intros st [i|i] _; [apply step_inv | apply abort_inv].
Qed.

(* Histories with failed bindings and dropped futures: any set of failing
   queries, any interleaving of steps and drops, from any previously bound table. *)
Theorem result_own_faulty : forall faults sets t ids evs i c,
  result (run_ev faults proto_fixed sets evs (init_bound t ids)) i = Some c -> c = sel sets i.
Proof.
  intros faults sets t ids evs i c. apply inv_result, run_ev_inv, inv_init_bound.
Qed.

Theorem paths_match_table : forall faults sets t ids evs,
  tbl (run_ev faults proto_fixed sets evs (init_bound t ids)) = paths (run_ev faults proto_fixed sets evs (init_bound t ids)).
Proof.
  intros faults sets t ids evs. apply (run_ev_inv faults sets evs), inv_init_bound.
Qed.

(* a schedule is a history in which nothing fails and nothing is dropped *)
Lemma run_run_ev : forall proto sets sched st,
  run proto sets sched st = run_ev [] proto sets (map EStep sched) st.
Proof.
  intros proto sets sched. unfold run, run_ev.
  induction sched as [|i r IH]; intros st; [reflexivity | exact (IH _)].
Qed.

(* any number of queries, any chunk sets, any schedule *)
Theorem captured_own : forall sets ids sched i c,
  captured (run proto_fixed sets sched (init ids)) i = Some c -> c = sel sets i.
Proof.
  intros sets ids sched i c. rewrite run_run_ev. apply inv_captured, run_ev_inv, inv_init_bound.
Qed.

(* a node whose table is already bound to some chunk set served queries before *)
Theorem result_own_bound : forall sets t ids sched i c,
  result (run proto_fixed sets sched (init_bound t ids)) i = Some c -> c = sel sets i.
Proof.
  intros sets t ids sched i c. rewrite run_run_ev. apply result_own_faulty.
Qed.

Theorem result_own : forall sets ids sched i c,
  result (run proto_fixed sets sched (init ids)) i = Some c -> c = sel sets i.
Proof. intros sets ids. exact (result_own_bound sets [] ids). Qed.

(* result under concurrency = result alone: whatever else runs, in whatever
   order, a query that completes scanned the same chunk set as in any other run
   in which it completes -- in particular the run in which it is alone. *)
Theorem schedule_independent : forall sets ids ids' sched sched' i c c',
  result (run proto_fixed sets sched (init ids)) i = Some c ->
  result (run proto_fixed sets sched' (init ids')) i = Some c' ->
  c = c'.
Proof.
  intros sets ids ids' sched sched' i c c' H H'.
  rewrite (result_own sets ids sched i c H), (result_own sets ids' sched' i c' H'). reflexivity.
Qed.

(* the command level used by the harness is made of the same steps *)
Lemma advance_inv : forall faults sets fuel st i, inv sets st -> inv sets (advance faults proto_fixed sets fuel st i).
Proof.
  intros faults sets fuel. induction fuel as [|f IH]; intros st i Hinv; cbn [advance]; [exact Hinv|].
  destruct (at_pause proto_fixed st i || done proto_fixed st i); [exact Hinv|].
  destruct (Nat.eqb _ _); [apply step_inv; exact Hinv | apply IH; apply step_inv; exact Hinv].
Qed.

Lemma finish_inv : forall faults sets st i, inv sets st -> inv sets (finish faults proto_fixed sets st i).
Proof.
  intros faults sets st i Hinv. unfold finish. destruct (at_pause proto_fixed st i); [|exact Hinv].
  apply (fold_left_inv (inv sets)); [intros st' _ _; apply step_inv | apply step_inv; exact Hinv].
Qed.

Lemma settle_inv : forall faults sets l st,
  inv sets st -> inv sets (settle faults proto_fixed sets l st).
Proof.
  intros faults sets l. apply (fold_left_inv (inv sets)). intros st j _. apply advance_inv.
Qed.

Lemma run_cmds_inv : forall faults sets cs started st,
  inv sets st -> inv sets (run_cmds faults proto_fixed sets cs started st).
Proof.
  intros faults sets cs. induction cs as [|c r IH]; intros started st Hinv; cbn [run_cmds]; [exact Hinv|].
  destruct c as [i|i|i]; cbn [run_cmd]; apply IH; apply settle_inv.
  - exact Hinv.
  - apply finish_inv. exact Hinv.
  - apply abort_inv. exact Hinv.
Qed.

Theorem cmds_result_own_bound : forall faults sets t ids cs i c,
  result (run_cmds faults proto_fixed sets cs [] (init_bound t ids)) i = Some c -> c = sel sets i.
Proof.
  intros faults sets t ids cs i c. apply inv_result, run_cmds_inv, inv_init_bound.
Qed.

Theorem cmds_result_own : forall sets ids cs i c,
  result (run_cmds [] proto_fixed sets cs [] (init ids)) i = Some c -> c = sel sets i.
Proof. intros sets ids. exact (cmds_result_own_bound [] sets [] ids). Qed.

(* The protocol before the repair.
   A (id 1) selects chunks {1,2}, B (id 2) selects {2,3};
   Lock/Register/Unlock of A, Lock/Register/Unlock of B, then A plans and runs:
   A is evaluated against B's chunk set. *)
Definition w_sets : list (qid * chunkset) := [(1%N, [1%N; 2%N]); (2%N, [2%N; 3%N])].
Definition w_sched : list qid := [1; 1; 1; 2; 2; 2; 1; 1; 1; 2; 2; 2]%N.

Theorem refuted_unlocked_plan :
  result (run proto_unlocked_plan w_sets w_sched (init [1%N; 2%N])) 1%N = Some [2%N; 3%N] /\
  sel w_sets 1%N = [1%N; 2%N].
Proof. split; vm_compute; reflexivity. Qed.

(* the same schedule under the repaired protocol: B waits for the lock *)
Example fixed_same_schedule :
  result (run proto_fixed w_sets (w_sched ++ w_sched) (init [1%N; 2%N])) 1%N = Some [1%N; 2%N] /\
  result (run proto_fixed w_sets (w_sched ++ w_sched) (init [1%N; 2%N])) 2%N = Some [2%N; 3%N].
Proof. split; vm_compute; reflexivity. Qed.

(* the harness's command sequence Start A, Start B, Resume A, Resume B *)
Example cmds_witness :
  result (run_cmds [] proto_unlocked_plan w_sets [Start 1%N; Start 2%N; Resume 1%N; Resume 2%N] [] (init [1%N; 2%N])) 1%N = Some [2%N; 3%N] /\
  result (run_cmds [] proto_fixed w_sets [Start 1%N; Start 2%N; Resume 1%N; Resume 2%N] [] (init [1%N; 2%N])) 1%N = Some [1%N; 2%N] /\
  result (run_cmds [] proto_fixed w_sets [Start 1%N; Start 2%N; Resume 1%N; Resume 2%N] [] (init [1%N; 2%N])) 2%N = Some [2%N; 3%N].
Proof. repeat split; vm_compute; reflexivity. Qed.

(* one turn per step of proto_fixed *)
Definition alone (i : qid) : list qid := [i; i; i; i; i; i].

(* non-vacuity: a query alone completes and scans its own set *)
Example solo_completes :
  result (run proto_fixed w_sets (alone 1%N) (init [1%N])) 1%N = Some [1%N; 2%N] /\
  result (run proto_fixed w_sets (alone 2%N) (init [2%N])) 2%N = Some [2%N; 3%N].
Proof. split; vm_compute; reflexivity. Qed.

(* a failed binding followed by a retry of the same query: A binds {1}, B (id 2)
   fails while binding {2}, the retry B' (id 3, same set) is evaluated against
   {2} -- it does not take the "already registered" shortcut on stale
   bookkeeping, because the bookkeeping was not touched by the failure *)
Example retry_after_failed_binding :
  let sets := [(1%N, [1%N]); (2%N, [2%N]); (3%N, [2%N])] in
  let st := run_cmds [2%N] proto_fixed sets
              [Start 1%N; Resume 1%N; Start 2%N; Resume 2%N; Start 3%N; Resume 3%N] [] (init_bound [1%N; 2%N] [1%N; 2%N; 3%N]) in
  result st 1%N = Some [1%N] /\ result st 2%N = None /\ result st 3%N = Some [2%N] /\ tbl st = paths st.
Proof. repeat split; vm_compute; reflexivity. Qed.

(* a query dropped at the pause point releases the lock; the next one proceeds *)
Example dropped_at_pause :
  let sets := [(1%N, [1%N]); (2%N, [2%N])] in
  let st := run_cmds [] proto_fixed sets [Start 1%N; Start 2%N; Cancel 1%N; Resume 2%N] [] (init [1%N; 2%N]) in
  result st 1%N = None /\ result st 2%N = Some [2%N].
Proof. repeat split; vm_compute; reflexivity. Qed.
