(* Proofs/CatalogCasProofs.v — C02: catalog mutations are atomic and never lost
   under concurrency; every catalog version ever written is well-formed.
   Corollaries of the linearizability of the retry machine (cas_inv, which
   cas_linearizable spells out, and what follows from it) for the instance
   Model/CatalogCas.v and of the catalog invariant s3_inv
   (Proofs/CatalogProofs.v). *)
From CS Require Import Base.Prelude Base.AList Base.ListFacts Base.CasProto Proofs.CasProtoProofs
     Model.Catalog Proofs.CatalogProofs Model.CatalogCas.
From CSGen Require Import Consts.
Open Scope Z_scope.

Lemma cat_decide_commit now o prev c' out :
  cat_decide now o prev = Commit c' out ->
  out = 0%N /\ s3_apply (cat_of prev) o = (c', 0%N).
Proof.
  unfold cat_decide. destruct (s3_apply (cat_of prev) o) as [c1 rc] eqn:E; simpl.
  destruct (N.eqb rc 0) eqn:R; [|discriminate].
  apply N.eqb_eq in R. subst rc. intros H; inversion H; subst. split; reflexivity.
Qed.

Lemma cat_decide_abort now o prev out :
  cat_decide now o prev = Abort out ->
  out = 1%N /\ exists srcs tgt, o = OComplete srcs tgt /\ s3_complete (cat_of prev) srcs tgt = None.
Proof.
  unfold cat_decide. destruct o as [p m|p|srcs tgt]; simpl; try discriminate.
  destruct (s3_complete (cat_of prev) srcs tgt) as [c'|] eqn:E; simpl; [discriminate|].
  intros H; inversion H; subst. split; [reflexivity|]. exists srcs, tgt. split; [reflexivity|exact E].
Qed.

(* a mutation that reports an error leaves the catalog as it was, so the
   atomic reading of cat_decide is s3_apply *)
Lemma s3_apply_error c o : snd (s3_apply c o) <> 0%N -> fst (s3_apply c o) = c.
Proof.
  destruct o as [p m|p|srcs tgt]; cbn [s3_apply]; try (intros H; contradiction H; reflexivity).
  destruct (s3_complete c srcs tgt); [intros H; contradiction H|]; reflexivity.
Qed.

Lemma cat_atomic now o v : cat_of (fst (atomic cat_decide now o v)) = fst (s3_apply (cat_of v) o).
Proof.
  unfold atomic, cat_decide. cbv zeta.
  destruct (N.eqb (snd (s3_apply (cat_of v) o)) 0) eqn:R; [reflexivity|].
  symmetry. apply s3_apply_error, N.eqb_neq, R.
Qed.

Lemma cat_seq_exec (ops : list (Z * cop)) : forall v,
  cat_of (seq_exec cat_decide v ops) = fold_left (fun c o => fst (s3_apply c o)) (map snd ops) (cat_of v).
Proof.
  induction ops as [|[n o] r IH]; intros v; [reflexivity|].
  unfold seq_exec in *. simpl. rewrite IH, cat_atomic. reflexivity.
Qed.

(* where a path listed in the index after an index operation comes from;
   cat_closed ("every time-index path is in the chunk map") follows for each
   catalog operation *)
Lemma ti_push_In {b p ti b' l' q} :
  In (b', l') (ti_push b p ti) -> In q l' ->
  q = p \/ exists l0, In (b', l0) ti /\ In q l0.
Proof.
  intros Hin Hq.
  rewrite ti_push_eq in Hin. apply (In_aset Z.eqb Zeqb_spec) in Hin. destruct Hin as [[-> ->]|Hin].
  - (* bucket b *)
    destruct (aget Z.eqb b ti) as [l|] eqn:Eg.
    + (* it existed: its list got p appended *)
      apply in_app_or in Hq. destruct Hq as [Hq|[Hq|[]]]; [|left; symmetry; exact Hq].
      right. exists l. split; [apply (aget_In Z.eqb Zeqb_spec); exact Eg|exact Hq].
    + (* it is new and lists p alone *)
      destruct Hq as [Hq|[]]. left; symmetry; exact Hq.
  - (* another bucket: unchanged *)
    right. exists l'. split; assumption.
Qed.

Lemma ti_push_all_In {bs p} : forall {ti b' l' q},
  In (b', l') (ti_push_all bs p ti) -> In q l' ->
  q = p \/ exists l0, In (b', l0) ti /\ In q l0.
Proof.
  unfold ti_push_all. induction bs as [|b r IH]; simpl; intros ti b' l' q Hin Hq.
  - right. exists l'. split; assumption.
  - destruct (IH _ _ _ _ Hin Hq) as [A|[l1 [Hin1 Hq1]]]; [left; exact A|].
    exact (ti_push_In Hin1 Hq1).
Qed.

Lemma ti_retain_all_In {p ti b l' q} :
  In (b, l') (ti_retain_all p ti) -> In q l' ->
  q <> p /\ exists l0, In (b, l0) ti /\ In q l0.
Proof.
  unfold ti_retain_all. intros Hin Hq. apply in_map_iff in Hin.
  destruct Hin as [[b0 l0] [Heq Hin]]. inversion Heq; subst.
  apply In_removeN in Hq. destruct Hq as [Hq Hn]. split; [exact Hn|].
  exists l0. split; assumption.
Qed.

Lemma ti_drop_empty_In ti b l : In (b, l) (ti_drop_empty ti) -> In (b, l) ti.
Proof. unfold ti_drop_empty. intros H. apply filter_In in H. tauto. Qed.

Lemma closed_empty : cat_closed cat_empty.
Proof. intros b l p []. Qed.

Lemma closed_register c p m : cat_closed c -> cat_closed (s3_register c p m).
Proof.
  intros Hc b l q Hin Hq. unfold s3_register in *. simpl in *. rewrite (amem_aset N.eqb Neqb_spec).
  destruct (ti_push_all_In Hin Hq) as [->|[l0 [Hin0 Hq0]]].
  - rewrite N.eqb_refl. reflexivity.
  - rewrite (Hc _ _ _ Hin0 Hq0). apply orb_true_r.
Qed.

Lemma closed_del1 c p : cat_closed c -> cat_closed (s3_del1 c p).
Proof.
  intros Hc b l q Hin Hq. unfold s3_del1 in *. simpl in *.
  destruct (ti_retain_all_In Hin Hq) as [Hn [l0 [Hin0 Hq0]]].
  apply N.eqb_neq in Hn. rewrite (amem_adel N.eqb Neqb_spec), Hn, (Hc _ _ _ Hin0 Hq0). reflexivity.
Qed.

Lemma closed_drop c : cat_closed c -> cat_closed (mkCat (c_chunks c) (ti_drop_empty (c_tindex c))).
Proof.
  intros Hc b l q Hin Hq. simpl in *. apply ti_drop_empty_In in Hin. exact (Hc _ _ _ Hin Hq).
Qed.

Lemma closed_delete c p : cat_closed c -> cat_closed (s3_delete c p).
Proof. intros Hc. apply (closed_drop (s3_del1 c p)). apply closed_del1. exact Hc. Qed.

Lemma closed_apply c o : cat_closed c -> cat_closed (fst (s3_apply c o)).
Proof.
  intros Hc. destruct o as [p m|p|srcs tgt]; simpl.
  - apply closed_register; exact Hc.
  - apply closed_delete; exact Hc.
  - rewrite s3_complete_eq. cbv zeta.
    pose proof (fold_left_inv cat_closed s3_del1 srcs (fun c' p _ => closed_del1 c' p) c Hc) as H1.
    set (c1 := fold_left s3_del1 srcs c) in *.
    destruct (aget N.eqb tgt (c_chunks c1)) as [e|] eqn:Eg; simpl; [|exact Hc].
    intros b l q Hin Hq. simpl in *. apply ti_drop_empty_In in Hin.
    rewrite (amem_aset N.eqb Neqb_spec), (H1 _ _ _ Hin Hq). apply orb_true_r.
Qed.

(* CatalogProofs.reg_wf under the name the statements of C02 use: the bodies
   are the same, so an [op_ok o] serves where s3_apply_inv asks for [reg_wf o]
   and a [Forall] of it where s3_run_inv asks for [hist_ok].  From here on the
   name hides Model.Catalog.op_ok, the boolean test that also keeps the
   interval clear of the i64 overflow of the bucket loop. *)
Definition op_ok (o : cop) : Prop :=
  match o with ORegister _ m => m_min m <= m_max m | _ => True end.

(* the catalog agrees with the plain map `sp`, its index covers every chunk,
   and the index mentions live chunks only *)
Definition cat_good (c : cat) : Prop := (exists sp, s3_inv c sp) /\ cat_closed c.

Lemma cat_good_empty : cat_good cat_empty.
Proof. split; [exists []; apply s3_empty_inv|apply closed_empty]. Qed.

Lemma cat_good_step now o prev c' out :
  op_ok o ->
  match prev with Some c => cat_good c | None => True end ->
  cat_decide now o prev = Commit c' out -> cat_good c'.
Proof.
  intros Hok Hp Hd. apply cat_decide_commit in Hd. destruct Hd as [_ Ha].
  assert (Hg : cat_good (cat_of prev)) by (destruct prev; [exact Hp|apply cat_good_empty]).
  destruct Hg as [[sp Hinv] Hcl]. replace c' with (fst (s3_apply (cat_of prev) o)) by (rewrite Ha; reflexivity).
  split.
  - exists (spec_apply sp o). apply s3_apply_inv; assumption.
  - apply closed_apply. exact Hcl.
Qed.

Section CatalogRuns.
  Variable progs : nat -> list cop.
  Variable sched : list label.
  Hypothesis progs_ok : forall c o, In o (progs c) -> op_ok o.

  (* the catalog object does not exist before the first registration *)
  Let s := cat_run sched (cat_init None progs).

  Lemma cat_inv : Inv cat_decide None 0 progs s.
  Proof. exact (cas_inv cat_decide cat_extra_gets cat_max_retries None 0 progs sched). Qed.

  Lemma log_ops_ok : Forall (fun k => op_ok (k_op k)) (s_log s).
  Proof.
    pose proof (cas_log_ops_in_progs cat_decide cat_extra_gets cat_max_retries None 0 progs sched) as H.
    eapply Forall_impl; [|exact H]. intros k Hk. exact (progs_ok _ _ Hk).
  Qed.

  (* every version of catalog.json ever written, and whatever a reader can
     GET at any time, has chunk list and time index in agreement *)
  Theorem catalog_wf_all_versions :
    Forall (fun k => cat_wf (k_val k) /\ cat_closed (k_val k)) (s_log s) /\
    match cur_val s with Some c => cat_wf c /\ cat_closed c | None => True end.
  Proof.
    pose proof (cas_invariant_ops cat_decide cat_extra_gets cat_max_retries None 0 progs op_ok cat_good sched
                  progs_ok I cat_good_step) as [A B].
    fold cat_run in A, B. fold (cat_init None progs) in A, B. fold s in A, B.
    assert (Hg : forall c, cat_good c -> cat_wf c /\ cat_closed c).
    { intros c [[sp Hinv] Hcl]. exact (conj (inv_indexed Hinv) Hcl). }
    split.
    - eapply Forall_impl; [|exact A]. intros k Hk. apply Hg. exact Hk.
    - destruct (cur_val s) as [c|]; [apply Hg; exact B|exact I].
  Qed.

  (* the outcome equals a one-at-a-time ordering of the successful mutations:
     the catalog stored now is the result of applying the committed operations
     sequentially (in commit order) to the empty catalog, and its chunk map is
     the plain map obtained by applying them to the empty map *)
  Theorem sequential_equivalence :
    cat_of (cur_val s) = s3_run (map (fun k => k_op k) (s_log s)) /\
    forall p, s3_look (cat_of (cur_val s)) p = aget N.eqb p (spec_run (map (fun k => k_op k) (s_log s))).
  Proof.
    assert (E : cat_of (cur_val s) = s3_run (map (fun k => k_op k) (s_log s))).
    { pose proof (cas_sequential cat_decide cat_extra_gets cat_max_retries None 0 progs sched) as H.
      fold cat_run in H. fold (cat_init None progs) in H. fold s in H.
      rewrite H, cat_seq_exec. unfold log_ops. rewrite map_map. reflexivity. }
    split; [exact E|]. rewrite E.
    apply (inv_look (s3_run_inv (map (fun k => k_op k) (s_log s)) (proj2 (Forall_map _ _ _) log_ops_ok))).
  Qed.

  (* per client: its mutations that reported success are in the log exactly
     once, in program order; the others wrote nothing *)
  Theorem successes_reflected c :
    map op_out (by_client c (s_log s)) = successes (c_done (s_cl s c)) /\
    length (by_client c (s_log s)) = length (successes (c_done (s_cl s c))).
  Proof. exact (cas_successes_are_commits cat_decide cat_extra_gets cat_max_retries None 0 progs sched c). Qed.

  (* the only error a mutation can return besides TooManyRetries is the
     missing compaction target, judged against a version that existed *)
  Theorem failures_justified c op o :
    In (op, FAbort o) (c_done (s_cl s c)) ->
    o = 1%N /\ exists srcs tgt prev, op = OComplete srcs tgt /\ hist None (s_log s) prev /\
                                     s3_complete (cat_of prev) srcs tgt = None.
  Proof.
    intros Hin. destruct (ci_abort (inv_cl cat_inv c) _ _ Hin) as [now [prev [Hh Hd]]].
    apply cat_decide_abort in Hd. destruct Hd as [Ho [srcs [tgt [Hop Hs]]]].
    split; [exact Ho|]. exists srcs, tgt, prev. auto.
  Qed.
End CatalogRuns.

Definition ex_meta (a b : Z) : cmeta := mkMeta a b 1%N 1%N.

(* first-write creation race: both clients load an absent catalog (3 GETs
   each), client 0 creates it, client 1's Create conflicts; after its reload
   client 1 registers on top of client 0's version: nothing is lost *)
Example c02_creation_race :
  let progs := fun c => match c with
                        | O => [ORegister 1%N (ex_meta 0 10)]
                        | S O => [ORegister 2%N (ex_meta 5 20)]
                        | _ => [] end in
  let s := cat_run [Req 0; Req 1; Req 0; Req 1; Req 0; Req 1; Req 0; Req 1; Req 1; Req 1]
                   (cat_init None progs) in
  map (fun k => (k_client k, map fst (c_chunks (k_val k)))) (s_log s) = [(O, [1%N]); (S O, [1%N; 2%N])] /\
  c_done (s_cl s 0) = [(ORegister 1%N (ex_meta 0 10), FCommit 0%N)] /\
  c_done (s_cl s 1) = [(ORegister 2%N (ex_meta 5 20), FCommit 0%N)].
Proof. vm_compute. repeat split. Qed.

(* conflict exhaustion: client 1 is starved for MAX_CAS_RETRIES attempts by
   five of client 0's six registrations (the first creates the catalog), gets
   TooManyRetries and has written nothing *)
Example c02_conflict_exhaustion :
  let r := fun i => ORegister i (ex_meta 0 10) in
  let progs := fun c => match c with
                        | O => [r 1%N; r 2%N; r 3%N; r 4%N; r 5%N; r 6%N]
                        | S O => [ODelete 9%N]
                        | _ => [] end in
  (* client 0 creates the catalog (3 GETs + PUT); then five times: client 1
     loads, client 0 commits (GET + PUT), client 1's PUT conflicts *)
  let round := [Req 1; Req 0; Req 0; Req 1] in
  let s := cat_run ([Req 0; Req 0; Req 0; Req 0] ++ round ++ round ++ round ++ round ++ round)
                   (cat_init None progs) in
  c_done (s_cl s 1) = [(ODelete 9%N, FRetries)] /\
  by_client 1 (s_log s) = [] /\
  length (s_log s) = 6%nat.
Proof. vm_compute. repeat split. Qed.
