(* The OTLP conversion of Model/Otlp.v: one row per data point with exact
   fields, outside the two recorded defect classes (integer precision, timestamp
   wrap).  A row's fields are read off [point_of] ([point_of_fields],
   [dp_bits_int], [dp_bits_double]); its labels are a map whose keys [map_insert]
   keeps the way [insert_name] keeps the label columns of ProtoConv, so the
   sortedness lemma of ProtoConvProofs carries over. *)
From Coq Require Import ZArith List Reals Lia Sorting.Sorted.
From Flocq Require Import Core IEEE754.BinarySingleNaN IEEE754.Binary IEEE754.Bits.
From CS Require Import Base.Prelude Base.ListFacts Model.Proto Model.ProtoConv Model.Otlp Proofs.ProtoFloatProofs Proofs.ProtoConvProofs.
Open Scope N_scope.

Definition src_attrs (s : src) : list kv :=
  match s with SrcN p => np_attrs p | SrcH p => hp_attrs p | SrcS p => sp_attrs p end.

(* the three kinds of data point differ only in how the value is found *)
Lemma point_of_fields : forall t,
  dp_ts (point_of t) = as_i64 (src_time (tg_src t)) /\
  dp_name (point_of t) = tg_name t /\
  dp_labels (point_of t) = merge_labels (tg_res t) (key_values_to_labels (src_attrs (tg_src t))).
Proof. intros [n res [p|p|p]]; repeat split. Qed.

(* the double-valued sources: the value is stored bit for bit *)
Definition src_double (s : src) : option N :=
  match s with
  | SrcN p => match np_val p with NDouble b => Some b | _ => None end
  | SrcH p => hp_sum p
  | SrcS p => Some (sp_sum p)
  end.

Lemma dp_bits_double : forall t b, src_double (tg_src t) = Some b -> dp_bits (point_of t) = b.
Proof.
  intros [n res [p|p|p]] b; unfold point_of; cbn [tg_src tg_name tg_res src_double].
  - (* number *) unfold number_point. cbn [dp_bits]. destruct (np_val p); intro H; inversion H; reflexivity.
  - (* histogram *) unfold hist_point. cbn [dp_bits]. intro H. rewrite H. reflexivity.
  - (* summary *) unfold summary_point. cbn [dp_bits]. intro H. inversion H. reflexivity.
Qed.

Lemma dp_bits_int : forall t i, src_int (tg_src t) = Some i -> dp_bits (point_of t) = bits_of_int i.
Proof.
  intros [n res [p|p|p]] i; unfold point_of; cbn [tg_src tg_name tg_res src_int].
  - (* number *) unfold number_point. cbn [dp_bits]. destruct (np_val p); intro H; inversion H; reflexivity.
  - (* histogram *) unfold hist_point. cbn [dp_bits]. destruct (hp_sum p); intro H; inversion H; reflexivity.
  - (* summary: no integer value *) discriminate.
Qed.

(* rows: one per data point, in request order *)
Theorem otlp_rows : forall (r : oreq) (b : obatch),
  export_to_arrow r = Done b ->
  Forall2 (fun t rw =>
             o_ts rw = as_i64 (src_time (tg_src t)) /\
             o_name rw = tg_name t /\
             o_bits rw = dp_bits (point_of t) /\
             o_cells rw = map (fun c => map_get c (dp_labels (point_of t))) (ob_cols b))
          (all_tagged r) (ob_rows b).
Proof.
  intros r b H. unfold export_to_arrow, points_to_arrow, export_points in H.
  set (ps := map point_of (all_tagged r)) in *.
  assert (Hb : b = mkOBatch (label_keys ps)
                     (map (fun p => mkORow (dp_ts p) (dp_name p) (dp_bits p)
                                           (map (fun c => map_get c (dp_labels p)) (label_keys ps))) ps)).
  { destruct ps; [discriminate|]. inversion H. reflexivity. }
  subst b. clear H. cbn [ob_rows ob_cols]. generalize (label_keys ps). intro cols.
  unfold ps. rewrite map_map. apply Forall2_map_r.
  intro t. cbn [o_ts o_name o_bits o_cells]. destruct (point_of_fields t) as (-> & -> & _). auto.
Qed.

Theorem otlp_row_count : forall r b,
  export_to_arrow r = Done b -> length (ob_rows b) = length (all_tagged r).
Proof.
  intros r b H. apply otlp_rows in H. induction H; cbn [length]; auto.
Qed.

Theorem otlp_empty : forall r, all_tagged r = [] <-> export_to_arrow r = Failed E_NO_POINTS.
Proof.
  intro r. unfold export_to_arrow, points_to_arrow, export_points. split.
  - intros ->. reflexivity.
  - destruct (all_tagged r); [reflexivity|discriminate].
Qed.

Lemma as_i64_small : forall n, (I63 <=? n) = false -> as_i64 n = Z.of_N n.
Proof.
  intros n H. unfold as_i64. apply N.leb_gt in H. destruct (N.ltb_spec n I63); [reflexivity|lia].
Qed.

Lemma dp_int_value_exact : forall t i,
  src_int (tg_src t) = Some i -> src_int_inexact (tg_src t) = false ->
  BinarySingleNaN.B2R (f64_of_bits (dp_bits (point_of t))) = IZR i.
Proof.
  intros t i Hi Hk. unfold src_int_inexact in Hk. rewrite Hi in Hk.
  apply negb_false_iff in Hk. unfold int_exact_in_f64 in Hk.
  apply andb_true_iff in Hk. destruct Hk as [H1 H2]. apply Z.eqb_eq in H2.
  rewrite (dp_bits_int t i Hi). rewrite (int_exact _ H1). rewrite H2. reflexivity.
Qed.

(* otlp_modulo_known: outside the two recorded classes every data point
   becomes one row with its exact timestamp, its metric name and a numerically
   equal value *)
Theorem otlp_modulo_known : forall (r : oreq) (b : obatch),
  known_int_precision r = false -> known_time_wrap r = false ->
  export_to_arrow r = Done b ->
  Forall2 (fun t rw =>
             o_ts rw = Z.of_N (src_time (tg_src t)) /\
             o_name rw = tg_name t /\
             (forall i, src_int (tg_src t) = Some i ->
                        BinarySingleNaN.B2R (f64_of_bits (o_bits rw)) = IZR i) /\
             (forall d, src_double (tg_src t) = Some d -> o_bits rw = d) /\
             o_cells rw = map (fun c => map_get c (dp_labels (point_of t))) (ob_cols b))
          (all_tagged r) (ob_rows b).
Proof.
  intros r b Hki Hkt H. apply otlp_rows in H.
  eapply Forall2_impl_In; [|exact H]. cbv beta. intros t rw Hin (Hts & Hname & Hbits & Hcells).
  pose proof (existsb_false _ _ Hki t Hin) as Hi. pose proof (existsb_false _ _ Hkt t Hin) as Ht.
  cbv beta in Hi, Ht. rewrite Hts, Hbits.
  (* timestamp, name, integer value, double value, cells *)
  exact (conj (as_i64_small _ Ht)
        (conj Hname
        (conj (fun i Hs => dp_int_value_exact t i Hs Hi)
        (conj (dp_bits_double t) Hcells)))).
Qed.

(* the two classes are real: witnesses *)
Definition w_int : oreq :=
  [mkRM None [[mkMetric [109] (DGauge [mkNP 1 (NInt 9007199254740993) []])]]].
Definition w_time : oreq :=
  [mkRM None [[mkMetric [109] (DGauge [mkNP 9223372036854775808 (NDouble 0) []])]]].

(* AsInt(2^53 + 1) is stored as the double 2^53 *)
Lemma otlp_refuted_int_precision :
  known_int_precision w_int = true /\
  export_to_arrow w_int = Done (mkOBatch [] [mkORow 1 [109] 4845873199050653696 []]) /\
  bits_of_int 9007199254740992 = 4845873199050653696.
Proof. vm_compute. repeat split; reflexivity. Qed.

(* time_unix_nano = 2^63 is stored as the timestamp -2^63 *)
Lemma otlp_refuted_time_wrap :
  known_time_wrap w_time = true /\
  export_to_arrow w_time = Done (mkOBatch [] [mkORow (-9223372036854775808) [109] 0 []]).
Proof. vm_compute. repeat split; reflexivity. Qed.

(* non-vacuity: small integers and ordinary times are outside both classes *)
Example otlp_modulo_known_nonvacuous :
  let r := [mkRM (Some [mkKV [104] (AVString [120])])
              [[mkMetric [109] (DSum [mkNP 1700000000000000000 (NInt (-42)) [mkKV [107] (AVInt 7)]])]]] in
  known_int_precision r = false /\ known_time_wrap r = false /\
  export_to_arrow r = Done (mkOBatch [[104]; [107]]
     [mkORow 1700000000000000000 [109] 13854479828675198976 [Some [120]; Some [55]]]).
Proof. vm_compute. repeat split; reflexivity. Qed.

Lemma map_get_insert : forall k k' v m,
  map_get k (map_insert k' v m) = if bytes_eqb k k' then Some v else map_get k m.
Proof.
  intros k k' v m. induction m as [|[k1 v1] r IH]; cbn [map_insert map_get]; [reflexivity|].
  destruct (bytes_eqb_spec k' k1) as [<-|E1].
  - (* k' heads the map: overwritten *) cbn [map_get]. destruct (bytes_eqb k k'); reflexivity.
  - destruct (bytes_ltb k' k1); cbn [map_get]; [(* put in front *) reflexivity|].
    (* further down; k = k1 is then not k' *)
    rewrite IH. destruct (bytes_eqb_spec k k1) as [<-|_]; [|reflexivity].
    destruct (bytes_eqb_spec k k'); congruence.
Qed.

(* the last value that an attribute list gives to a key *)
Fixpoint kv_last (k : bytes) (l : list kv) : option bytes :=
  match l with
  | [] => None
  | e :: r => match kv_last k r with
              | Some v => Some v
              | None => if bytes_eqb k (kv_key e) then Some (any_value_to_string (kv_val e)) else None
              end
  end.

Lemma fold_insert_get : forall k l m,
  map_get k (fold_left (fun m e => map_insert (kv_key e) (any_value_to_string (kv_val e)) m) l m)
  = match kv_last k l with Some v => Some v | None => map_get k m end.
Proof.
  intros k. induction l as [|e l IH]; intro m; cbn [fold_left kv_last]; [reflexivity|].
  rewrite IH, map_get_insert. destruct (kv_last k l); [reflexivity|].
  destruct (bytes_eqb k (kv_key e)); reflexivity.
Qed.

Lemma key_values_get : forall k l, map_get k (key_values_to_labels l) = kv_last k l.
Proof.
  intros k l. unfold key_values_to_labels. rewrite fold_insert_get.
  destruct (kv_last k l); reflexivity.
Qed.

Lemma map_insert_keys : forall k v m, map fst (map_insert k v m) = insert_name k (map fst m).
Proof.
  intros k v m. induction m as [|[k1 v1] r IH]; cbn [map_insert map insert_name fst]; [reflexivity|].
  destruct (bytes_eqb_spec k k1) as [<-|_]; [reflexivity|].
  destruct (bytes_ltb k k1); cbn [map fst]; [reflexivity|]. rewrite IH. reflexivity.
Qed.

Lemma key_values_keys_sorted : forall l, Sorted blt (map fst (key_values_to_labels l)).
Proof.
  intro l. unfold key_values_to_labels.
  apply (fold_left_inv (fun m => Sorted blt (map fst m))); [|constructor].
  intros m e _ H. rewrite map_insert_keys. apply insert_name_sorted. exact H.
Qed.

Lemma sorted_head_absent : forall k v r, StronglySorted blt (map fst ((k, v) :: r)) -> map_get k r = None.
Proof.
  intros k v r H. cbn [map fst] in H. inversion H as [|a l Hs Hf]; subst. clear H Hs.
  induction r as [|[k1 v1] r IH]; cbn [map_get]; [reflexivity|].
  cbn [map fst] in Hf. inversion Hf as [|x l Hx Hr]; subst. unfold blt in Hx.
  destruct (bytes_eqb_spec k k1) as [<-|_]; [|apply IH; exact Hr].
  rewrite bytes_ltb_irrefl in Hx. discriminate.
Qed.

Lemma merge_get : forall k b a, StronglySorted blt (map fst b) ->
  map_get k (merge_labels a b) = match map_get k b with Some v => Some v | None => map_get k a end.
Proof.
  intros k. unfold merge_labels. induction b as [|[k1 v1] r IH]; intros a Hs; cbn [fold_left map_get]; [reflexivity|].
  cbn [fst snd]. rewrite IH by (cbn [map fst] in Hs; inversion Hs; assumption). rewrite map_get_insert.
  destruct (bytes_eqb_spec k k1) as [<-|_]; [|reflexivity].
  rewrite (sorted_head_absent k v1 r Hs). reflexivity.
Qed.

(* otlp_labels: the label of key k in the row of a data point is the last
   value its own attributes give to k, else what its resource says *)
Theorem otlp_labels : forall (t : tagged) (k : bytes),
  map_get k (dp_labels (point_of t))
  = match kv_last k (src_attrs (tg_src t)) with
    | Some v => Some v
    | None => map_get k (tg_res t)
    end.
Proof.
  intros t k. destruct (point_of_fields t) as (_ & _ & ->). rewrite merge_get.
  - rewrite key_values_get. reflexivity.
  - apply Sorted_StronglySorted; [exact blt_trans|apply key_values_keys_sorted].
Qed.

Theorem otlp_resource_labels : forall (r : oreq) (t : tagged),
  In t (all_tagged r) ->
  exists rm, In rm r /\
    forall k, map_get k (tg_res t)
              = match rm_resource rm with Some a => kv_last k a | None => None end.
Proof.
  intros r t H. unfold all_tagged in H. apply in_flat_map in H. destruct H as [rm [Hrm Ht]].
  exists rm. split; [exact Hrm|]. intro k.
  unfold resource_tagged in Ht. apply in_flat_map in Ht. destruct Ht as [sc [_ Ht]].
  apply in_flat_map in Ht. destruct Ht as [mt [_ Ht]]. apply in_map_iff in Ht.
  destruct Ht as [s [Hs _]]. subst t. cbn [tg_res]. unfold resource_labels.
  destruct (rm_resource rm); [apply key_values_get|reflexivity].
Qed.
