(* Proofs/TimeExtractProofs.v — C04: the time range and the pushdown
   predicates extracted from a statement never exclude a matching row; composed
   with C07 (exact time-range lookup) the selected chunks hold every matching
   row, hence the answer equals the full scan. *)
From Coq Require Import Permutation.
From CS Require Import Base.Prelude Base.AList Base.ListFacts Model.Pred Model.Catalog Model.TimeExtract Proofs.CatalogProofs.
From CSGen Require Import Consts.
Open Scope Z_scope.

Lemma in_i64_spec z : in_i64 z = true <-> i64_min <= z <= i64_max.
Proof.
  unfold in_i64. rewrite andb_true_iff, !Z.leb_le. tauto.
Qed.

Lemma and3_true a b : and3 a b = Some true <-> a = Some true /\ b = Some true.
Proof.
  split; [|intros [-> ->]; reflexivity].
  destruct a as [[]|], b as [[]|]; try discriminate; auto.
Qed.

Lemma or3_true a b : or3 a b = Some true <-> a = Some true \/ b = Some true.
Proof.
  split; [|intros [-> | ->]; [|destruct a as [[]|]]; reflexivity].
  destruct a as [[]|], b as [[]|]; try discriminate; auto.
Qed.

Lemma is_true_spec a : is_true a = true <-> a = Some true.
Proof. destruct a as [[]|]; cbn; intuition congruence. Qed.

(* the scale factors written in the code are the nanoseconds per unit *)
Lemma code_scale_exact u : code_scale u = unit_nanos u.
Proof. destruct u; reflexivity. Qed.

(* what extract_timestamp_value returns is the literal's meaning, and an i64 *)
Lemma ts_value_sound I l v : ts_value l = Some v -> lit_val I l = Some v /\ in_i64 v = true.
Proof.
  destruct l as [x|u x|d|k]; cbn [ts_value lit_val]; intros H; try discriminate.
  - destruct (in_i64 x) eqn:E; inversion H; subst; auto.
  - destruct (in_i64 x) eqn:E; [|discriminate]. unfold checked_mul in H.
    rewrite code_scale_exact in H.
    destruct (in_i64 (x * unit_nanos u)) eqn:E2; inversion H; subst; auto.
Qed.

Lemma ts_value_not_other l v : ts_value l = Some v -> forall k, l <> LOther k.
Proof. intros H k ->. discriminate. Qed.

Lemma cmp_sem_value I op rev l v r :
  ts_value l = Some v ->
  cmp_sem I op rev l r = Some (if rev then zcmp op v (r_ts r) else zcmp op (r_ts r) v).
Proof.
  intros H. destruct (ts_value_sound I l v H) as [Hv _].
  destruct l; try discriminate; unfold cmp_sem; rewrite Hv; reflexivity.
Qed.

Definition within (b : ival) (t : Z) : Prop := fst b <= t <= snd b.

Lemma within_unbounded t : in_i64 t = true -> within unbounded t.
Proof. intros H. apply in_i64_spec in H. exact H. Qed.

Lemma within_inter a b t : within a t -> within b t -> within (inter a b) t.
Proof. unfold within, inter. cbn [fst snd]. lia. Qed.

Lemma within_hull a b t : within a t \/ within b t -> within (hull a b) t.
Proof. unfold within, hull. cbn [fst snd]. lia. Qed.

(* [rev]: the literal stands on the left of the operator *)
Lemma cmp_bounds_sound I op rev l r :
  in_i64 (r_ts r) = true -> cmp_sem I op rev l r = Some true ->
  within ((if rev then cmp_bounds_rev else cmp_bounds) op (ts_value l)) (r_ts r).
Proof.
  intros Hi Hs. destruct (ts_value l) as [v|] eqn:E;
    [|destruct rev; apply within_unbounded; exact Hi].
  rewrite (cmp_sem_value I op rev l v r E) in Hs. inversion Hs as [Hz]. clear Hs.
  apply in_i64_spec in Hi. unfold within.
  destruct rev, op; cbn [cmp_bounds cmp_bounds_rev zcmp fst snd unbounded] in *;
    try (apply Z.eqb_eq in Hz); try (apply Z.ltb_lt in Hz); try (apply Z.leb_le in Hz); lia.
Qed.

Theorem bounds_sound I p r :
  in_i64 (r_ts r) = true -> sem I p r = Some true -> within (bounds p) (r_ts r).
Proof.
  intros Hi. induction p as [op l|op l|neg lo hi|k c|a IHa b IHb|a IHa b IHb|a IHa];
    cbn [sem bounds]; intros Hs.
  - apply (cmp_bounds_sound I op false); assumption.
  - apply (cmp_bounds_sound I op true); assumption.
  - destruct neg; [apply within_unbounded; exact Hi|].
    apply and3_true in Hs. destruct Hs as [Hlo Hhi].
    pose proof (cmp_bounds_sound I OGe false lo r Hi Hlo) as A.
    pose proof (cmp_bounds_sound I OLe false hi r Hi Hhi) as B.
    apply in_i64_spec in Hi. unfold within in *.
    destruct (ts_value lo), (ts_value hi); cbn [cmp_bounds fst snd unbounded] in *; lia.
  - apply within_unbounded; exact Hi.
  - apply and3_true in Hs. destruct Hs as [Ha Hb]. apply within_inter; auto.
  - apply or3_true in Hs. apply within_hull. destruct Hs as [Ha|Hb]; auto.
  - apply within_unbounded; exact Hi.
Qed.

Lemma sat_all_In I fs r f : sat_all I fs r = true -> In f fs -> sem I f r = Some true.
Proof.
  unfold sat_all. rewrite forallb_forall. intros H Hin. apply is_true_spec. apply (H f Hin).
Qed.

Lemma plan_bounds_sound I fs : forall acc r b,
  in_i64 (r_ts r) = true -> sat_all I fs r = true ->
  (forall c, acc = Some c -> within c (r_ts r)) ->
  plan_bounds fs acc = Some b -> within b (r_ts r).
Proof.
  induction fs as [|f rest IH]; intros acc r b Hi Hs Hacc Hp; cbn [plan_bounds] in Hp.
  - apply Hacc; exact Hp.
  - assert (Hf : sem I f r = Some true) by (apply (sat_all_In I (f :: rest)); [exact Hs|left; reflexivity]).
    assert (Hr : sat_all I rest r = true).
    { unfold sat_all in *. cbn [forallb] in Hs. apply andb_true_iff in Hs. tauto. }
    apply (IH _ r b Hi Hr) in Hp; [exact Hp|].
    intros c Hc. destruct (mentions_ts f).
    + inversion Hc; subst c. apply within_inter; [|apply bounds_sound with (I := I); assumption].
      destruct acc as [c0|]; [apply Hacc; reflexivity|apply within_unbounded; exact Hi].
    + apply Hacc; exact Hc.
Qed.

(* pruning_sound: whenever a range is extracted (some filter mentions the
   timestamp), every row passing all filters has its timestamp inside it. *)
Theorem pruning_sound I fs r lo hi :
  in_i64 (r_ts r) = true -> sat_all I fs r = true ->
  extract fs = TRange lo hi -> lo <= r_ts r <= hi.
Proof.
  intros Hi Hs He. unfold extract in He.
  destruct (plan_bounds fs None) as [[l h]|] eqn:E; [|discriminate].
  inversion He; subst l h.
  apply (plan_bounds_sound I fs None r (lo, hi) Hi Hs); [intros c Hc; discriminate|exact E].
Qed.

(* bounds_sound for a single WHERE clause, through [sat]; that the clause
   mentions the timestamp is not used *)
Corollary pruning_sound_where I p r :
  in_i64 (r_ts r) = true -> sat I p r = true -> mentions_ts p = true ->
  fst (bounds p) <= r_ts r <= snd (bounds p).
Proof.
  intros Hi Hs _. apply is_true_spec in Hs. exact (bounds_sound I p r Hi Hs).
Qed.

(* The WHERE clause confines the timestamp to a finite window: some literal
   bounds hold for every row (of any timestamp) that passes the filters. *)
Definition finite_window (I : interp) (fs : list pred) : Prop :=
  exists lo hi, forall r, sat_all I fs r = true -> lo <= r_ts r <= hi.

Lemma sem_ts_irrelevant I p : mentions_ts p = false ->
  forall id t t', sem I p (mkRow id t) = sem I p (mkRow id t').
Proof.
  induction p as [op l|op l|neg lo hi|k c|a IHa b IHb|a IHa b IHb|a IHa];
    cbn [mentions_ts sem]; intros H id t t'; try discriminate.
  2-3: (* PAnd, POr *) apply orb_false_iff in H; destruct H as [Ha Hb];
       rewrite (IHa Ha id t t'), (IHb Hb id t t'); reflexivity.
  - (* PLabel *) reflexivity.
  - (* PNot *) rewrite (IHa H id t t'). reflexivity.
Qed.

Lemma plan_bounds_none fs : forall acc,
  plan_bounds fs acc = None -> acc = None /\ forallb (fun f => negb (mentions_ts f)) fs = true.
Proof.
  induction fs as [|f rest IH]; intros acc H; cbn [plan_bounds forallb] in *.
  - auto.
  - destruct (mentions_ts f) eqn:E.
    + apply IH in H. destruct H as [H _]. discriminate.
    + apply IH in H. destruct H as [H1 H2]. rewrite H2. auto.
Qed.

Lemma sat_all_ts_irrelevant I fs :
  forallb (fun f => negb (mentions_ts f)) fs = true ->
  forall id t t', sat_all I fs (mkRow id t) = sat_all I fs (mkRow id t').
Proof.
  induction fs as [|f rest IH]; intros H id t t'; cbn [forallb] in *; [reflexivity|].
  apply andb_true_iff in H. destruct H as [Hf Hr]. apply negb_true_iff in Hf.
  unfold sat_all in *. cbn [forallb]. unfold sat at 1 3.
  rewrite (sem_ts_irrelevant I f Hf id t t'). f_equal. apply IH; exact Hr.
Qed.

(* a satisfiable finite-window query always mentions the timestamp, so the
   "last hour" default is never what prunes its chunks *)
Theorem finite_window_not_default I fs :
  finite_window I fs -> (exists r, sat_all I fs r = true) -> extract fs <> TDefault.
Proof.
  intros [lo [hi Hw]] [r Hr] He. unfold extract in He.
  destruct (plan_bounds fs None) as [[l h]|] eqn:E; [discriminate|].
  apply plan_bounds_none in E. destruct E as [_ E].
  destruct r as [id t].
  pose proof (sat_all_ts_irrelevant I fs E id t (hi + 1)) as Heq.
  rewrite Hr in Heq. symmetry in Heq. apply Hw in Heq. cbn [r_ts] in Heq. lia.
Qed.

(* pruning_sound in resolved form: for a finite-window query the range handed
   to the metadata client contains every matching row, whatever the clock *)
Theorem pruning_sound_finite_window I fs r now :
  finite_window I fs -> in_i64 (r_ts r) = true -> sat_all I fs r = true ->
  fst (resolve now (extract fs)) <= r_ts r <= snd (resolve now (extract fs)).
Proof.
  intros Hw Hi Hs. destruct (extract fs) as [|lo hi] eqn:E.
  - exfalso. apply (finite_window_not_default I fs Hw); [exists r; exact Hs|exact E].
  - cbn [resolve fst snd]. apply (pruning_sound I fs r lo hi Hi Hs E).
Qed.

Theorem convert_exact I p c r : convert p = Some c -> csem I c r = sem I p r.
Proof.
  revert c. induction p as [op l|op l|neg lo hi|k cv|a IHa b IHb|a IHa b IHb|a IHa];
    cbn [convert]; intros c H; try discriminate.
  2-3: (* PAnd, POr *) destruct (convert a) as [ca|]; [|discriminate]; destruct (convert b) as [cb|]; [|discriminate];
       inversion H; subst; cbn [csem sem]; rewrite (IHa ca eq_refl), (IHb cb eq_refl); reflexivity.
  - (* PLabel *) destruct cv; inversion H; subst; reflexivity.
  - (* PNot *)
    destruct (convert a) as [ca|]; [|discriminate].
    inversion H; subst. cbn [csem sem]. rewrite (IHa ca eq_refl). reflexivity.
Qed.

Theorem plan_preds_sound I fs r c :
  sat_all I fs r = true -> In c (plan_preds fs) -> csem I c r = Some true.
Proof.
  intros Hs Hin. unfold plan_preds in Hin. apply in_flat_map in Hin. destruct Hin as [f [Hf Hc]].
  destruct (convert f) as [c'|] eqn:E; [|contradiction].
  destruct Hc as [Hc|[]]. subst c'. rewrite (convert_exact I f c r E).
  apply (sat_all_In I fs r f Hs Hf).
Qed.

Theorem convert_none_if_mentions_ts p : mentions_ts p = true -> convert p = None.
Proof.
  induction p as [op l|op l|neg lo hi|k cv|a IHa b IHb|a IHa b IHb|a IHa];
    cbn [mentions_ts convert]; intros H; try reflexivity; try discriminate.
  1-2: (* PAnd, POr *) apply orb_true_iff in H; destruct H as [H|H];
       [rewrite (IHa H); reflexivity | rewrite (IHb H); destruct (convert a); reflexivity].
  (* PNot *)
  rewrite (IHa H). reflexivity.
Qed.

(* Reading from the sublist [sel] of the sources [live] loses nothing that [f]
   keeps, when the sources left out hold nothing that [f] keeps. *)
Lemma perm_filter_flat_map_sub {B} (g : N -> list B) (f : B -> bool) sel live :
  NoDup sel -> NoDup live -> incl sel live ->
  (forall p r, In p live -> ~ In p sel -> In r (g p) -> f r = false) ->
  Permutation (filter f (flat_map g sel)) (filter f (flat_map g live)).
Proof.
  intros Hs Hl Hincl Hout. set (inS := fun p => memN p sel).
  assert (P : Permutation sel (filter inS live)).
  { apply NoDup_Permutation; [exact Hs|apply NoDup_filter; exact Hl|].
    intros p. rewrite filter_In. unfold inS. rewrite memN_In. split; [intros Hp; split; auto|tauto]. }
  apply Permutation_sym.
  eapply perm_trans; [apply perm_filter, Permutation_flat_map, (perm_filter_split inS)|].
  rewrite flat_map_app, filter_app,
    (filter_all_false f (flat_map g (filter (fun p => negb (inS p)) live))), app_nil_r.
  - apply perm_filter, Permutation_flat_map, Permutation_sym, P.
  - intros r Hr. apply in_flat_map in Hr. destruct Hr as [p [Hp Hrp]].
    apply filter_In in Hp. destruct Hp as [Hlive Hns]. apply negb_true_iff in Hns.
    apply (Hout p r Hlive); [|exact Hrp]. intros Hin. apply memN_In in Hin. unfold inS in Hns. congruence.
Qed.

Section Composition.
  Variable I : interp.
  (* the rows stored in each chunk file: ANY placement of rows into chunks *)
  Variable content : path -> list row.
  (* the statistics gate of get_chunks_with_predicates, per chunk *)
  Variable prune : list cpred -> path -> bool.
  (* the engine: answer of a statement over the rows of the registered table *)
  Variable answer : Type.
  Variable engine : list pred -> list row -> answer.
  (* the statement's projection / aggregation / GROUP BY part *)
  Variable post : list row -> answer.

  (* the catalog after the history h registered the chunk files *)
  Variable h : list cop.
  Hypothesis history_ok : hist_ok h.

  (* C06 (another property): a registered chunk's [min,max] covers the
     timestamps of its rows, and timestamps are i64 *)
  Hypothesis C06_chunk_metadata_covers_rows :
    forall p m r, In (p, m) (spec_run h) -> In r (content p) ->
      m_min m <= r_ts r <= m_max m /\ in_i64 (r_ts r) = true.

  (* C12, stated over the opaque column predicates of Model/Pred.v and taken
     here as a hypothesis: the statistics gate keeps every chunk that holds a
     row on which all pushed down predicates are TRUE *)
  Hypothesis C12_stats_pruning_sound :
    forall cs p r, In r (content p) ->
      (forall c, In c cs -> csem I c r = Some true) -> prune cs p = true.

  (* the one assumption about DataFusion: a statement of the family is
     selection by the conjunction of its filters followed by a function of the
     selected rows that does not depend on their order *)
  Hypothesis DataFusion_select_then_post :
    forall fs rows, engine fs rows = post (filter (sat_all I fs) rows).
  Hypothesis DataFusion_post_order_independent :
    forall rows rows', Permutation rows rows' -> post rows = post rows'.

  Definition live_paths : list path := map fst (spec_run h).
  Definition all_rows : list row := rows_of content live_paths.

  Lemma live_nodup : NoDup live_paths.
  Proof. exact (spec_run_nodup h history_ok). Qed.

  (* generic in the backend: any [get] that answers exactly (C07) *)
  Section Backend.
    Variable get : Z -> Z -> outcome (list (path * cmeta)).
    Hypothesis get_exact : forall s e, exact_answer (get s e) (spec_run h) s e.
    (* the backend's own statistics gate: [prune] for S3, none in memory *)
    Variable pr : list cpred -> path -> bool.
    Hypothesis pr_sound :
      forall cs p r, In r (content p) ->
        (forall c, In c cs -> csem I c r = Some true) -> pr cs p = true.

    Variable now : Z.
    Variable fs : list pred.
    Hypothesis window : finite_window I fs.

    (* with an exact [get] the selection is the gated listing of the resolved range *)
    Lemma select_exact : exists l,
      select_chunks get pr now fs = Done (filter (pr (plan_preds fs)) (map fst l)) /\ NoDup (map fst l) /\
      forall p m, In (p, m) l <->
        In (p, m) (spec_get (spec_run h) (fst (resolve now (extract fs))) (snd (resolve now (extract fs)))).
    Proof.
      unfold select_chunks. destruct (resolve now (extract fs)) as [s e].
      pose proof (get_exact s e) as G. unfold exact_answer in G.
      destruct (get s e) as [l| | |]; try contradiction. exists l. split; [reflexivity|exact G].
    Qed.

    Lemma select_done : exists sel, select_chunks get pr now fs = Done sel /\ NoDup sel /\ incl sel live_paths.
    Proof.
      destruct select_exact as [l [Hsel [Hnd Hiff]]]. eexists; split; [exact Hsel|]. split.
      - apply NoDup_filter; exact Hnd.
      - intros p Hp. apply filter_In in Hp. destruct Hp as [Hp _].
        apply in_map_iff in Hp. destruct Hp as [[p' m] [Heq Hin]]. cbn in Heq; subst p'.
        apply Hiff, In_spec_get in Hin. destruct Hin as (_ & Hin & _).
        unfold live_paths. apply in_map_iff. exists (p, m); auto.
    Qed.

    (* the selection returns, so what holds of whatever it returns holds of
       its result *)
    Lemma with_selection (Q : list path -> Prop) :
      (forall sel, select_chunks get pr now fs = Done sel -> Q sel) ->
      exists sel, select_chunks get pr now fs = Done sel /\ Q sel.
    Proof.
      intros H. destruct select_done as [sel [Hsel _]]. exists sel. split; [exact Hsel|exact (H sel Hsel)].
    Qed.

    Theorem selected_superset_gen p m r sel :
      In (p, m) (spec_run h) -> In r (content p) -> sat_all I fs r = true ->
      select_chunks get pr now fs = Done sel -> In p sel.
    Proof.
      intros Hlive Hr Hs Hsel. destruct select_exact as [l [Hsel' [_ Hiff]]].
      rewrite Hsel in Hsel'. inversion Hsel'; subst sel.
      destruct (C06_chunk_metadata_covers_rows p m r Hlive Hr) as [Hcov Hi].
      pose proof (pruning_sound_finite_window I fs r now window Hi Hs) as Hrange.
      destruct (resolve now (extract fs)) as [s e]. cbn [fst snd] in Hrange, Hiff.
      apply filter_In. split.
      - apply in_map_iff. exists (p, m). split; [reflexivity|]. apply Hiff, In_spec_get.
        unfold overlaps. rewrite andb_true_iff, Z.leb_le, Z.geb_le. split; [lia|]. split; [exact Hlive | lia].
      - apply (pr_sound _ p r Hr). intros c Hc. apply (plan_preds_sound I fs r c Hs Hc).
    Qed.

    Theorem answer_eq_full_scan_gen sel :
      select_chunks get pr now fs = Done sel ->
      engine fs (rows_of content sel) = engine fs all_rows.
    Proof.
      intros Hsel. destruct select_done as [sel' [Hsel' [Hnd Hincl]]].
      rewrite Hsel in Hsel'. inversion Hsel'; subst sel'.
      rewrite !DataFusion_select_then_post. apply DataFusion_post_order_independent.
      apply perm_filter_flat_map_sub; [exact Hnd|exact live_nodup|exact Hincl|].
      intros p r Hlive Hns Hrp. destruct (sat_all I fs r) eqn:Hs; [exfalso|reflexivity].
      apply in_map_iff in Hlive. destruct Hlive as [[p' m] [Heq Hin]]. cbn in Heq; subst p'.
      exact (Hns (selected_superset_gen p m r sel Hin Hrp Hs Hsel)).
    Qed.
  End Backend.
  Arguments with_selection {get} _ {pr now fs Q}.
  Arguments selected_superset_gen {get} _ {pr} _ {now fs} _ {p m r sel}.
  Arguments answer_eq_full_scan_gen {get} _ {pr} _ {now fs} _ {sel}.

  (* the two real backends (C07: s3_get_exact / local_get_exact) *)
  Definition no_gate : list cpred -> path -> bool := fun _ _ => true.

  Lemma s3_exact : forall s e, exact_answer (s3_get (s3_run h) s e) (spec_run h) s e.
  Proof. intros s e. apply s3_get_exact; exact history_ok. Qed.
  Lemma local_exact : forall s e, exact_answer (local_get (local_run h) s e) (spec_run h) s e.
  Proof. intros s e. apply local_get_exact; exact history_ok. Qed.
  Lemma no_gate_sound : forall cs p r, In r (content p) ->
    (forall c, In c cs -> csem I c r = Some true) -> no_gate cs p = true.
  Proof. reflexivity. Qed.

  Theorem selected_superset now fs p m r :
    finite_window I fs ->
    In (p, m) (spec_run h) -> In r (content p) -> sat_all I fs r = true ->
    (exists sel, select_chunks (s3_get (s3_run h)) prune now fs = Done sel /\ In p sel) /\
    (exists sel, select_chunks (local_get (local_run h)) no_gate now fs = Done sel /\ In p sel).
  Proof.
    intros Hw Hlive Hr Hs. split.
    - apply (with_selection s3_exact). intros sel.
      exact (selected_superset_gen s3_exact C12_stats_pruning_sound Hw Hlive Hr Hs).
    - apply (with_selection local_exact). intros sel.
      exact (selected_superset_gen local_exact no_gate_sound Hw Hlive Hr Hs).
  Qed.

  Theorem answer_eq_full_scan now fs :
    finite_window I fs ->
    (exists sel, select_chunks (s3_get (s3_run h)) prune now fs = Done sel /\
                 engine fs (rows_of content sel) = engine fs all_rows) /\
    (exists sel, select_chunks (local_get (local_run h)) no_gate now fs = Done sel /\
                 engine fs (rows_of content sel) = engine fs all_rows).
  Proof.
    intros Hw. split.
    - apply (with_selection s3_exact). intros sel.
      exact (answer_eq_full_scan_gen s3_exact C12_stats_pruning_sound Hw).
    - apply (with_selection local_exact). intros sel.
      exact (answer_eq_full_scan_gen local_exact no_gate_sound Hw).
  Qed.
End Composition.
Arguments answer_eq_full_scan_gen {I content answer engine post h} _ _ _ _ {get} _ {pr} _ {now fs} _ {sel} _.

Lemma tskind_eqb_eq a b : tskind_eqb a b = true <-> a = b.
Proof. destruct a, b; cbn; intuition congruence. Qed.

(* Outside the known class the statement is type-checked against the schema of
   the ingested data, exactly as the full scan is. *)
Lemma register_schema st data sel :
  known_empty_selection_schema st data sel = false -> qn_schema (register st data sel) = data.
Proof.
  destruct sel as [|p sel]; cbn [known_empty_selection_schema register qn_schema]; [|reflexivity].
  intros H. apply negb_false_iff in H. apply tskind_eqb_eq in H. exact H.
Qed.

(* C04_modulo_known: whatever was bound before, unless (no chunk selected and
   bound schema <> data schema) the outcome of the pipeline (answer or
   type-check error) is the outcome of the full scan. *)
Theorem run_query_eq_full_scan_modulo_known
  (I : interp) (content : path -> list row) (prune : list cpred -> path -> bool)
  (answer : Type) (engine : list pred -> list row -> answer) (post : list row -> answer)
  (h : list cop) (typechecks : tskind -> bool) (st : qnode) (data : tskind) (now : Z) (fs : list pred) :
  hist_ok h ->
  (forall p m r, In (p, m) (spec_run h) -> In r (content p) ->
     m_min m <= r_ts r <= m_max m /\ in_i64 (r_ts r) = true) ->
  (forall cs p r, In r (content p) -> (forall c, In c cs -> csem I c r = Some true) -> prune cs p = true) ->
  (forall fs rows, engine fs rows = post (filter (sat_all I fs) rows)) ->
  (forall rows rows', Permutation rows rows' -> post rows = post rows') ->
  finite_window I fs ->
  (exists sel, select_chunks (s3_get (s3_run h)) prune now fs = Done sel /\
     (known_empty_selection_schema st data sel = false ->
      snd (run_query typechecks (engine fs) content st data sel)
      = full_scan typechecks (engine fs) content data (live_paths h))) /\
  (exists sel, select_chunks (local_get (local_run h)) no_gate now fs = Done sel /\
     (known_empty_selection_schema st data sel = false ->
      snd (run_query typechecks (engine fs) content st data sel)
      = full_scan typechecks (engine fs) content data (live_paths h))).
Proof.
  intros Hk Hc Hp Heng Hpost Hw.
  (* once the data's schema is bound, pipeline and full scan differ only in
     the rows they read *)
  assert (R : forall sel,
    engine fs (rows_of content sel) = engine fs (all_rows content h) ->
    known_empty_selection_schema st data sel = false ->
    snd (run_query typechecks (engine fs) content st data sel)
    = full_scan typechecks (engine fs) content data (live_paths h)).
  { intros sel E Hn. unfold run_query, full_scan. cbn [snd]. rewrite (register_schema _ _ _ Hn).
    destruct (typechecks data); [f_equal; exact E | reflexivity]. }
  destruct (answer_eq_full_scan I content prune answer engine post h Hk Hc Hp Heng Hpost now fs Hw)
    as [[sel1 [S1 E1]] [sel2 [S2 E2]]].
  split; [exists sel1 | exists sel2]; split; [exact S1 | exact (R sel1 E1) | exact S2 | exact (R sel2 E2)].
Qed.

(* refuted_empty_selection_schema: a fresh node (default schema: Timestamp(ns)), Int64 data, a
   window that matches no chunk, a statement comparing the timestamp with
   integer literals: the full scan answers (an empty selection), the pipeline
   fails in the type check.  Observed on the real code:
   SELECT * FROM metrics WHERE timestamp <= -1800000000000 AND timestamp >= 3600000000001
   on a fresh QueryNode over Int64 chunks -> "DataFusion error: type_coercion". *)
Definition refut_h : list cop := [ORegister 1%N (mkMeta 0 10 2%N 1%N)].
Definition refut_content : path -> list row := fun p => if N.eqb p 1 then [mkRow 0 0; mkRow 1 10] else [].
Definition refut_fs : list pred := [PAnd (PCmp OLe (LInt (-5))) (PCmp OGe (LInt 20))].
Definition refut_typechecks : tskind -> bool := fun k => tskind_eqb k KInt64.
(* an interpretation for the witnesses: now() = 0, opaque operands unknown,
   label k holds of the row with id k *)
Definition ex_interp : interp :=
  mkInterp 0 (fun _ _ _ _ => None) (fun k id => Some (N.eqb k id)).
(* SELECT count( * ) ... : selection by the filters, then the number of rows *)
Definition refut_exec : list row -> nat := fun rows => length (filter (sat_all ex_interp refut_fs) rows).

Theorem refuted_empty_selection_schema :
  exists sel,
    select_chunks (local_get (local_run refut_h)) no_gate 0 refut_fs = Done sel /\
    known_empty_selection_schema qnode_fresh KInt64 sel = true /\
    snd (run_query refut_typechecks refut_exec refut_content qnode_fresh KInt64 sel) = Failed 1%N /\
    full_scan refut_typechecks refut_exec refut_content KInt64 (live_paths refut_h) = Done 0%nat.
Proof. exists []. vm_compute. auto. Qed.

(* Two placements (histories + chunk contents) of the same multiset of rows:
   whatever each backend selects for the statement, the answers agree. *)
Theorem chunking_independent
  (I : interp) (answer : Type) (engine : list pred -> list row -> answer) (post : list row -> answer)
  (content1 content2 : path -> list row) (prune1 prune2 : list cpred -> path -> bool)
  (h1 h2 : list cop) (now1 now2 : Z) (fs : list pred) :
  hist_ok h1 -> hist_ok h2 ->
  (forall p m r, In (p, m) (spec_run h1) -> In r (content1 p) ->
     m_min m <= r_ts r <= m_max m /\ in_i64 (r_ts r) = true) ->
  (forall p m r, In (p, m) (spec_run h2) -> In r (content2 p) ->
     m_min m <= r_ts r <= m_max m /\ in_i64 (r_ts r) = true) ->
  (forall cs p r, In r (content1 p) -> (forall c, In c cs -> csem I c r = Some true) -> prune1 cs p = true) ->
  (forall cs p r, In r (content2 p) -> (forall c, In c cs -> csem I c r = Some true) -> prune2 cs p = true) ->
  (forall fs rows, engine fs rows = post (filter (sat_all I fs) rows)) ->
  (forall rows rows', Permutation rows rows' -> post rows = post rows') ->
  Permutation (all_rows content1 h1) (all_rows content2 h2) ->
  finite_window I fs ->
  forall sel1 sel2,
    select_chunks (s3_get (s3_run h1)) prune1 now1 fs = Done sel1 ->
    select_chunks (local_get (local_run h2)) prune2 now2 fs = Done sel2 ->
    engine fs (rows_of content1 sel1) = engine fs (rows_of content2 sel2).
Proof.
  intros Hk1 Hk2 Hc1 Hc2 Hp1 Hp2 Heng Hpost Hperm Hw sel1 sel2 Hs1 Hs2.
  (* premises in order: history, C06, the two about DataFusion, exact backend
     (C07), gate (C12), window, selection *)
  rewrite (answer_eq_full_scan_gen Hk1 Hc1 Heng Hpost (s3_exact h1 Hk1) Hp1 Hw Hs1).
  rewrite (answer_eq_full_scan_gen Hk2 Hc2 Heng Hpost (local_exact h2 Hk2) Hp2 Hw Hs2).
  rewrite !Heng. apply Hpost. apply perm_filter. exact Hperm.
Qed.

(* adaptive indexing (execute_with_indexes) only counts usage *)
Theorem execute_with_indexes_same_answer {A} (exec : list row -> A) v i st rows :
  snd (execute_with_indexes exec v i st rows) = exec rows.
Proof. reflexivity. Qed.

(* The five shapes the code before 3f63730 answered unsoundly: OR of
   equalities, equality after a wider bound, reversed equality, negation,
   non-literal bound (observed on the real code, in this order: (10,10), (5,5),
   default, (0,now), default).  The repaired analysis on them: *)
Example witness_or_of_equalities :
  extract [POr (PCmp OEq (LInt 5)) (PCmp OEq (LInt 10))] = TRange 5 10.
Proof. vm_compute. reflexivity. Qed.

Example witness_eq_after_wider_bound :
  extract [PAnd (PCmp OLt (LInt 200)) (POr (PCmp OGt (LInt 100)) (PCmp OEq (LInt 5)))] = TRange 5 200.
Proof. vm_compute. reflexivity. Qed.

Example witness_reversed_equality :
  extract [PCmpR OEq (LInt 5)] = TRange 5 5.
Proof. vm_compute. reflexivity. Qed.

Example witness_negation :
  extract [PAnd (PCmp OGe (LInt 0)) (PNot (PCmp OGt (LInt 1000)))] = TRange 0 i64_max.
Proof. vm_compute. reflexivity. Qed.

Example witness_non_literal_bound :
  extract [PAnd (PCmp OGe (LOther 0)) (PCmp OLe (LNow 0))] = TRange i64_min i64_max.
Proof. vm_compute. reflexivity. Qed.

Example witness_no_timestamp_is_default :
  extract [PLabel 0 true] = TDefault /\ plan_preds [PLabel 0 true] = [CLeaf 0%N].
Proof. vm_compute. auto. Qed.

Example witness_two_filters_intersect :
  extract [PCmp OLe (LInt 150); PLabel 1 true; PCmp OGe (LInt 5)] = TRange 5 150.
Proof. vm_compute. reflexivity. Qed.

(* timestamp literals: scaled to nanoseconds, unbounded when the product leaves i64 *)
Example witness_timestamp_literals :
  extract [PBetween false (LTs USec 2) (LTs UMilli 3000)] = TRange 2000000000 3000000000 /\
  extract [PCmp OGe (LTs USec 9223372037)] = TRange i64_min i64_max.
Proof. vm_compute. auto. Qed.

(* pruning_sound is not vacuous: a row satisfying a nested OR/AND/NOT clause *)
Example pruning_sound_nonvacuous :
  let fs := [PAnd (PCmp OLt (LInt 200)) (POr (PCmp OGt (LInt 100)) (PCmpR OEq (LInt 5)));
             PNot (PLabel 7 true)] in
  let r := mkRow 1 5 in
  in_i64 (r_ts r) = true /\ sat_all ex_interp fs r = true /\ extract fs = TRange 5 200.
Proof. vm_compute. auto. Qed.

(* finite_window is satisfiable together with a matching row *)
Example finite_window_nonvacuous :
  let fs := [PAnd (PBetween false (LInt 5) (LInt 200)) (PLabel 1 true)] in
  finite_window ex_interp fs /\ sat_all ex_interp fs (mkRow 1 150) = true.
Proof.
  split; [|vm_compute; reflexivity].
  exists 5, 200. intros r H. unfold sat_all in H. cbn [forallb] in H.
  apply andb_true_iff in H. destruct H as [H _]. apply is_true_spec in H.
  cbn [sem] in H. apply and3_true in H. destruct H as [H _].
  cbn [cmp_sem lit_val zcmp] in H. apply and3_true in H. destruct H as [H1 H2].
  inversion H1 as [A]. inversion H2 as [B]. apply Z.leb_le in A. apply Z.leb_le in B. lia.
Qed.

(* the composition is not vacuous: a two-chunk catalog, a window query that
   matches a row of the second chunk only; both backends select that chunk *)
Example composition_nonvacuous :
  let h := [ORegister 1%N (mkMeta 0 4 2%N 1%N); ORegister 2%N (mkMeta 100 300 2%N 1%N)] in
  let content := fun p => if N.eqb p 1 then [mkRow 1 0; mkRow 3 4]
                          else if N.eqb p 2 then [mkRow 1 150; mkRow 2 300] else [] in
  let fs := [PAnd (PBetween false (LInt 5) (LInt 200)) (PLabel 1 true)] in
  hist_ok h /\
  (forall p m r, In (p, m) (spec_run h) -> In r (content p) ->
     m_min m <= r_ts r <= m_max m /\ in_i64 (r_ts r) = true) /\
  select_chunks (s3_get (s3_run h)) no_gate 0 fs = Done [2%N] /\
  select_chunks (local_get (local_run h)) no_gate 0 fs = Done [2%N] /\
  filter (sat_all ex_interp fs) (all_rows content h) = [mkRow 1 150].
Proof.
  cbv zeta. split; [|split; [|split; [|split]]].
  - unfold hist_ok. repeat constructor; vm_compute; discriminate.
  - intros p m r Hin Hr. vm_compute in Hin.
    destruct Hin as [Hin|[Hin|[]]]; inversion Hin; subst p m; cbn in Hr;
      destruct Hr as [Hr|[Hr|[]]]; subst r; vm_compute; intuition discriminate.
  - vm_compute. reflexivity.
  - vm_compute. reflexivity.
  - vm_compute. reflexivity.
Qed.
