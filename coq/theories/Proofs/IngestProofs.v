(* Proofs/IngestProofs.v — C06: conservation of accepted rows over every
   interleaving of writers, threshold flushes and timer flushes; exactly-once
   at quiescence; exact chunk metadata; one announcement per chunk.

   Multisets are handled by counting: for every row r,
   cnt r (accepted) = cnt r (catalog) + cnt r (buffer) + cnt r (in flight),
   which makes every preservation step linear arithmetic; the final theorems
   are converted to `Permutation` with Permutation_count_occ.

   Every step of a writer or of the timer is either one step of a running flush
   (`flush_step`: touches the object store, the catalog and the channels, never
   the buffer) or a step on the buffer (skip, take, append: never the store);
   `pstep` says so once, and every invariant is preserved across `pstep`. *)
From Coq Require Import Permutation.
From CS Require Import Base.Prelude Base.ListFacts Model.Ingest.
Open Scope Z_scope.

Definition row_eq_dec : forall a b : row, {a = b} + {a <> b}.
Proof. decide equality; [apply Z.eq_dec | apply N.eq_dec]. Defined.

Definition cnt (r : row) (l : list row) : nat := count_occ row_eq_dec l r.
Definition cntN (n : N) (l : list N) : nat := count_occ N.eq_dec l n.

Lemma cnt_app r l1 l2 : cnt r (l1 ++ l2) = (cnt r l1 + cnt r l2)%nat.
Proof. apply count_occ_app. Qed.
Lemma cntN_app n l1 l2 : cntN n (l1 ++ l2) = (cntN n l1 + cntN n l2)%nat.
Proof. apply count_occ_app. Qed.

Lemma rows_of_app bs1 bs2 : rows_of (bs1 ++ bs2) = rows_of bs1 ++ rows_of bs2.
Proof. apply flat_map_app. Qed.
Lemma rows_of_snoc bs b : rows_of (bs ++ [b]) = rows_of bs ++ b_rows b.
Proof. rewrite rows_of_app. simpl. rewrite app_nil_r. reflexivity. Qed.
Lemma rows_of_cons b bs : rows_of (b :: bs) = b_rows b ++ rows_of bs.
Proof. reflexivity. Qed.

Lemma perm_of_cnt l1 l2 : (forall r, cnt r l1 = cnt r l2) -> Permutation l1 l2.
Proof. apply (Permutation_count_occ row_eq_dec). Qed.

Fixpoint sumw (f : wthread -> nat) (ws : list wthread) : nat :=
  match ws with [] => 0%nat | w :: r => (f w + sumw f r)%nat end.

Lemma sumw_upd f ws : forall i w w',
  nth_error ws i = Some w -> (sumw f (upd i w' ws) + f w = sumw f ws + f w')%nat.
Proof.
  induction ws as [|x r IH]; intros i w w' H.
  - destruct i; discriminate.
  - destruct i as [|j]; simpl in *.
    + inversion H; subst. lia.
    + specialize (IH j w w' H). lia.
Qed.

Lemma cnt_flat_map_ws r (g : wthread -> list row) ws :
  cnt r (flat_map g ws) = sumw (fun w => cnt r (g w)) ws.
Proof.
  induction ws as [|w t IH]; simpl; [reflexivity|]. rewrite cnt_app, IH. reflexivity.
Qed.

Lemma sumw_ext f g ws : (forall w, f w = g w) -> sumw f ws = sumw g ws.
Proof. intros H. induction ws as [|w t IH]; simpl; [reflexivity|]. rewrite H, IH. reflexivity. Qed.

Lemma sumw_zero f ws : (forall w, In w ws -> f w = 0%nat) -> sumw f ws = 0%nat.
Proof.
  induction ws as [|w t IH]; intros H; simpl; [reflexivity|].
  rewrite (H w (or_introl eq_refl)), IH; [reflexivity|]. intros x Hx. apply H. right; exact Hx.
Qed.

Lemma sumw_plus f g ws : sumw (fun w => (f w + g w)%nat) ws = (sumw f ws + sumw g ws)%nat.
Proof. induction ws as [|w t IH]; simpl; [reflexivity|]. rewrite IH. lia. Qed.

Lemma upd_length {A} (x : A) l : forall i, length (upd i x l) = length l.
Proof. induction l as [|y r IH]; intros [|j]; simpl; auto. Qed.

Lemma Forall_upd {A} (P : A -> Prop) (x : A) l : forall i,
  Forall P l -> P x -> Forall P (upd i x l).
Proof.
  induction l as [|y r IH]; intros [|j] HF Hx; simpl; auto; inversion HF; subst; auto.
Qed.

Lemma init_ws_idle todos w : In w (st_ws (init todos)) -> w_pc w = PIdle /\ w_res w = [].
Proof. simpl. intros H. apply in_map_iff in H as (t & <- & _). split; reflexivity. Qed.

(* no chunk waiting to be registered or announced *)
Definition pc_nochunk (p : pc) : Prop :=
  match p with PReg _ _ | PAnn _ _ => False | _ => True end.
(* neither a chunk nor rows taken from the buffer *)
Definition pc_empty (p : pc) : Prop :=
  match p with PPut _ _ | PReg _ _ | PAnn _ _ => False | _ => True end.

Lemma empty_nochunk p : pc_empty p -> pc_nochunk p.
Proof. destruct p; simpl; auto. Qed.
Lemma empty_inflight p : pc_empty p -> pc_inflight p = [].
Proof. destruct p; simpl; intros H; try reflexivity; contradiction. Qed.

(* Where a thread stands after a flush step with result r: at the pc the step
   names or, once the flush has returned, somewhere it holds nothing. *)
Definition lands (r : fres) (p' : pc) : Prop :=
  match r with FPc p => p' = p | FRet _ => pc_empty p' end.

Lemma lands_w_after r w : lands r (w_pc (w_after r w)).
Proof. destruct r as [p|[]]; simpl; auto. Qed.
Lemma lands_t_after r : lands r (t_after r).
Proof. destruct r as [p|[]]; simpl; auto. Qed.

Lemma lands_begin_nochunk bs k p' : lands (begin_flush bs k) p' -> pc_nochunk p'.
Proof. destruct bs; simpl; [apply empty_nochunk|intros ->; exact I]. Qed.

Definition fres_inflight (r : fres) : list row :=
  match r with FPc p => pc_inflight p | FRet _ => [] end.

Lemma inflight_begin_flush bs k : fres_inflight (begin_flush bs k) = rows_of bs.
Proof. destruct bs; reflexivity. Qed.

Lemma lands_inflight r p' : lands r p' -> pc_inflight p' = fres_inflight r.
Proof. destruct r; simpl; [intros ->; reflexivity|apply empty_inflight]. Qed.

(* the batch whose own write is waiting for the flush it triggered *)
Definition cont_own (k : cont) : list row := match k with KDone b => b_rows b | _ => [] end.
Definition pc_own (p : pc) : list row :=
  match p with
  | PPut _ k | PReg _ k | PAnn _ k | PFin k => cont_own k
  | _ => []
  end.
Definition fres_own (r : fres) : list row :=
  match r with FPc p => pc_own p | FRet k => cont_own k end.

Lemma flush_step_frame sh p sh' r0 :
  flush_step sh p = Some (sh', r0) ->
  sh_buf sh' = sh_buf sh /\ sh_appended sh' = sh_appended sh /\ sh_clock sh' = sh_clock sh
  /\ sh_next_tick sh' = sh_next_tick sh.
Proof. destruct p; try discriminate; intros H; injection H as <- _; repeat split. Qed.

Lemma flush_step_rows r sh p sh' r0 :
  flush_step sh p = Some (sh', r0) ->
  (cnt r (cat_rows sh') + cnt r (fres_inflight r0) = cnt r (cat_rows sh) + cnt r (pc_inflight p))%nat.
Proof.
  destruct p; try discriminate; intros H; injection H as <- <-; unfold cat_rows; simpl.
  - (* PPut: the rows taken are the rows of the chunk *) reflexivity.
  - (* PReg: the rows of the chunk enter the catalog *)
    rewrite flat_map_app, cnt_app. simpl. rewrite app_nil_r. lia.
  - (* PAnn *) reflexivity.
  - (* PFin *) reflexivity.
Qed.

Lemma flush_step_own sh p sh' r0 :
  flush_step sh p = Some (sh', r0) -> fres_own r0 = pc_own p.
Proof. destruct p; try discriminate; intros H; injection H as _ <-; reflexivity. Qed.

Lemma wstep_flush c sh w sh1 r :
  flush_step sh (w_pc w) = Some (sh1, r) -> wstep c sh w = (sh1, w_after r w).
Proof.
  unfold wstep. destruct (w_pc w); try discriminate; intros Hf; cbv beta iota; rewrite Hf; reflexivity.
Qed.

Lemma tstep_flush c shut sh p sh1 r :
  flush_step sh p = Some (sh1, r) -> tstep c shut sh p = (sh1, t_after r).
Proof.
  unfold tstep. destruct p; try discriminate; intros Hf; cbv beta iota; rewrite Hf; reflexivity.
Qed.

Definition bytes_of (bs : list batch) : N := fold_right (fun b a => (b_size b + a)%N) 0%N bs.

Definition buf_ok (bf : buffer) : Prop :=
  bf_rows bf = N.of_nat (length (rows_of (bf_batches bf))) /\ bf_bytes bf = bytes_of (bf_batches bf).

Lemma bytes_of_snoc bs b : bytes_of (bs ++ [b]) = (bytes_of bs + b_size b)%N.
Proof. induction bs as [|x r IH]; simpl; [lia|]. rewrite IH. lia. Qed.

Lemma buf_ok_empty : buf_ok buf_empty.
Proof. split; reflexivity. Qed.

Lemma buf_ok_append bf b : buf_ok bf -> buf_ok (buf_append bf b).
Proof.
  intros [Hr Hb]. split; simpl.
  - rewrite rows_of_snoc, app_length, Hr. lia.
  - rewrite bytes_of_snoc, Hb. reflexivity.
Qed.

Definition app_cnt (r : row) (sh : shared) : nat := cnt r (rows_of (sh_appended sh)).
Definition store_cnt (r : row) (sh : shared) : nat :=
  (cnt r (cat_rows sh) + cnt r (buf_rows sh))%nat.

Set Implicit Arguments.

(* the part of the shared state that only the steps of a flush change *)
Record same_store (sh sh' : shared) : Prop := SameStore {
  same_cat : sh_cat sh' = sh_cat sh;
  same_ann : sh_ann sh' = sh_ann sh;
  same_tann : sh_tann sh' = sh_tann sh;
  same_next : sh_next sh' = sh_next sh;
  same_objs : sh_objs sh' = sh_objs sh
}.

(* A step from pc p to p' that is not part of a flush and appends the batches bs. *)
Record buffer_step (sh : shared) (p : pc) (sh' : shared) (p' : pc) (bs : list batch) : Prop :=
  BufferStep {
    bstep_store : same_store sh sh';
    bstep_from : pc_nochunk p;
    bstep_to : pc_nochunk p';
    bstep_buf_ok : buf_ok (sh_buf sh) -> buf_ok (sh_buf sh');
    bstep_appended : sh_appended sh' = bs ++ sh_appended sh;
    (* whatever rows it moves stay accounted for *)
    bstep_rows : forall r, (store_cnt r sh' + cnt r (pc_inflight p')
                            = store_cnt r sh + cnt r (pc_inflight p) + cnt r (rows_of bs))%nat
  }.

Lemma same_store_trans sh sh1 sh2 : same_store sh sh1 -> same_store sh1 sh2 -> same_store sh sh2.
Proof. intros [] []. constructor; congruence. Qed.

Unset Implicit Arguments.

Lemma buffer_skip sh p sh' p' :
  pc_empty p -> pc_empty p' -> same_store sh sh' ->
  sh_buf sh' = sh_buf sh -> sh_appended sh' = sh_appended sh -> buffer_step sh p sh' p' [].
Proof.
  intros Hp Hp' Hs Eb Ea. constructor; rewrite ?Eb; auto using empty_nochunk.
  (* the other fields are the hypotheses; bstep_rows: *)
  intros r. unfold store_cnt, buf_rows, cat_rows.
  rewrite (same_cat Hs), Eb, (empty_inflight _ Hp), (empty_inflight _ Hp'). simpl. lia.
Qed.

(* `buffer.take()` followed by the start of flush_batches *)
Lemma buffer_take sh p k p' :
  pc_empty p -> lands (begin_flush (bf_batches (sh_buf sh)) k) p' ->
  buffer_step sh p (set_buf sh buf_empty) p' [].
Proof.
  intros Hp Hl. constructor.
  - repeat split.
  - exact (empty_nochunk _ Hp).
  - exact (lands_begin_nochunk _ _ _ Hl).
  - intros _. exact buf_ok_empty.
  - reflexivity.
  - intros r. rewrite (lands_inflight _ _ Hl), inflight_begin_flush, (empty_inflight _ Hp).
    unfold store_cnt, buf_rows, cat_rows; simpl. lia.
Qed.

Lemma buffer_append sh b p p' :
  pc_empty p -> pc_empty p' ->
  buffer_step sh p (add_appended (set_buf sh (buf_append (sh_buf sh) b)) b) p' [b].
Proof.
  intros Hp Hp'. constructor.
  - repeat split.
  - exact (empty_nochunk _ Hp).
  - exact (empty_nochunk _ Hp').
  - apply buf_ok_append.
  - reflexivity.
  - intros r. rewrite (empty_inflight _ Hp), (empty_inflight _ Hp').
    unfold store_cnt, buf_rows, cat_rows; simpl. rewrite rows_of_snoc, app_nil_r, !cnt_app. simpl. lia.
Qed.

Lemma buffer_step_trans sh p sh1 p1 sh2 p2 bs1 bs2 :
  buffer_step sh p sh1 p1 bs1 -> buffer_step sh1 p1 sh2 p2 bs2 -> buffer_step sh p sh2 p2 (bs2 ++ bs1).
Proof.
  intros B1 B2. constructor.
  - exact (same_store_trans (bstep_store B1) (bstep_store B2)).
  - exact (bstep_from B1).
  - exact (bstep_to B2).
  - intros H. exact (bstep_buf_ok B2 (bstep_buf_ok B1 H)).
  - rewrite (bstep_appended B2), (bstep_appended B1). apply app_assoc.
  - intros r. pose proof (bstep_rows B1 r). pose proof (bstep_rows B2 r).
    rewrite rows_of_app, cnt_app. lia.
Qed.

(* A step of a thread from pc p to p' that appends the batches bs: one step of
   the flush it is running (which appends nothing), or a step on the buffer. *)
Definition pstep (sh : shared) (p : pc) (sh' : shared) (p' : pc) (bs : list batch) : Prop :=
  (exists r, flush_step sh p = Some (sh', r) /\ lands r p' /\ bs = []) \/ buffer_step sh p sh' p' bs.

Lemma pstep_app_cnt r sh p sh' p' bs :
  pstep sh p sh' p' bs -> app_cnt r sh' = (cnt r (rows_of bs) + app_cnt r sh)%nat.
Proof.
  intros H. assert (E : sh_appended sh' = bs ++ sh_appended sh).
  { destruct H as [(r0 & Hf & _ & ->)|B]; [|exact (bstep_appended B)].
    apply (flush_step_frame _ _ _ _ Hf). }
  unfold app_cnt. rewrite E, rows_of_app. apply cnt_app.
Qed.

(* What a step does to the store and to the chunk its thread holds: one of the
   three middle steps of a flush, or nothing (the last step of a flush only
   sets last_flush). *)
Lemma pstep_store_cases (P : shared -> pc -> shared -> pc -> Prop) :
  (forall sh bs k, let c := mk_chunk (sh_next sh) bs in P sh (PPut bs k) (put_obj sh c) (PReg c k)) ->
  (forall sh c k, P sh (PReg c k) (reg_chunk sh c) (PAnn c k)) ->
  (forall sh c k, P sh (PAnn c k) (announce sh c) (PFin k)) ->
  (forall sh p sh' p', same_store sh sh' -> pc_nochunk p -> pc_nochunk p' -> P sh p sh' p') ->
  forall sh p sh' p' bs, pstep sh p sh' p' bs -> P sh p sh' p'.
Proof.
  intros Put Reg Ann Same sh p sh' p' bs [(r & Hf & Hl & _)|B].
  - destruct p; try discriminate; injection Hf as <- <-; simpl in Hl.
    + (* PPut *) subst p'. apply Put.
    + (* PReg *) subst p'. apply Reg.
    + (* PAnn *) subst p'. apply Ann.
    + (* PFin *) apply Same; [repeat split|exact I|exact (empty_nochunk _ Hl)].
  - exact (Same _ _ _ _ (bstep_store B) (bstep_from B) (bstep_to B)).
Qed.

(* The clock is read by the timer's checks only: advancing it is a step of
   nobody that moves nothing, so whatever every `pstep` preserves survives it. *)
Lemma clock_pstep sh z : pstep sh PIdle (set_clock sh z) PIdle [].
Proof. right. apply buffer_skip; repeat split. Qed.

(* what writer w has been, or is about to be, told Ok for *)
Definition w_acc (r : row) (w : wthread) : nat :=
  (cnt r (res_rows (w_res w)) + cnt r (pc_own (w_pc w)))%nat.

Lemma res_rows_snoc res b ok :
  res_rows (res ++ [(b, ok)]) = res_rows res ++ (if ok then b_rows b else []).
Proof. unfold res_rows. rewrite flat_map_app. simpl. rewrite app_nil_r. reflexivity. Qed.

Lemma w_acc_answer r t res b ok :
  w_acc r (mkW PIdle t (res ++ [(b, ok)]))
  = (cnt r (res_rows res) + cnt r (if ok then b_rows b else []))%nat.
Proof. unfold w_acc. simpl. rewrite res_rows_snoc, cnt_app. lia. Qed.

Lemma w_acc_after r r0 w :
  w_acc r (w_after r0 w) = (cnt r (res_rows (w_res w)) + cnt r (fres_own r0))%nat.
Proof.
  destruct r0 as [p|[]]; try reflexivity.
  (* FRet (KDone b): the write is answered Ok *) apply w_acc_answer.
Qed.

Lemma own_begin_flush bs k : fres_own (begin_flush bs k) = cont_own k.
Proof. destruct bs; reflexivity. Qed.

(* A step of writer w to w' is a `pstep`, and the rows of the batches it
   appends are those it is newly answerable for. *)
Definition w_moves (sh : shared) (w : wthread) (sh' : shared) (w' : wthread) (bs : list batch) : Prop :=
  pstep sh (w_pc w) sh' (w_pc w') bs /\
  forall r, w_acc r w' = (w_acc r w + cnt r (rows_of bs))%nat.

Lemma w_skip sh w w' :
  pc_empty (w_pc w) -> pc_empty (w_pc w') -> (forall r, w_acc r w' = w_acc r w) ->
  w_moves sh w sh w' [].
Proof.
  intros Hp Hp' Ha. split.
  - right. apply buffer_skip; try assumption; repeat split.
  - intros r. rewrite Ha. apply plus_n_O.
Qed.

Lemma wstep_pstep c sh w sh' w' : wstep c sh w = (sh', w') -> exists bs, w_moves sh w sh' w' bs.
Proof.
  intros H. destruct (flush_step sh (w_pc w)) as [[sh1 r0]|] eqn:Hf.
  - rewrite (wstep_flush c _ _ _ _ Hf) in H. injection H as <- <-. exists []. split.
    + left. exists r0. auto using lands_w_after.
    + intros r. rewrite w_acc_after, (flush_step_own _ _ _ _ Hf). apply plus_n_O.
  - unfold wstep in H. destruct w as [p todo res]. cbn [w_pc w_todo w_res] in *.
    destruct p; try discriminate Hf.
    { (* PIdle: the next write, if there is one, starts *)
      destruct todo as [|b t]; [|destruct (b_rows b) as [|x l] eqn:Hb];
        injection H as <- <-; exists []; apply w_skip; try exact I; intros r.
      - (* nothing left to write *) reflexivity.
      - (* zero rows: Ok at once *) rewrite w_acc_answer, Hb. reflexivity.
      - (* to PLock b *) reflexivity. }
    { (* PLock b *)
      destruct (negb (buf_compatible (sh_buf sh) b)).
      { (* another schema: take the buffer, flush it, come back *)
        injection H as <- <-. exists []. split.
        - right. eapply buffer_take; [exact I|apply lands_w_after].
        - intros r. rewrite w_acc_after, own_begin_flush. unfold w_acc. simpl. lia. }
      destruct (cf_max_bytes c <? bf_bytes (sh_buf sh) + b_size b)%N.
      { (* BufferFull *)
        injection H as <- <-. exists []. apply w_skip; try exact I.
        intros r. rewrite w_acc_answer. reflexivity. }
      destruct (should_flush c (buf_append (sh_buf sh) b)); injection H as <- <-; exists [b].
      { (* append, then take for the threshold flush *)
        split.
        - right. eapply (buffer_step_trans _ _ _ _ _ _ [b] []).
          { apply (buffer_append _ b _ (PLock b)); exact I. }
          eapply buffer_take; [exact I|apply lands_w_after].
        - intros r. rewrite w_acc_after, own_begin_flush. unfold w_acc. simpl. rewrite app_nil_r. lia. }
      (* append, Ok *)
      split.
      - right. apply buffer_append; exact I.
      - intros r. rewrite w_acc_answer. unfold w_acc. simpl. rewrite app_nil_r. lia. }
    (* PCheck, PTake, PShutTake, PStopped: at a pc of the timer a writer does not move *)
    all: injection H as <- <-; exists []; apply w_skip; [exact I|exact I|reflexivity].
Qed.

Lemma tstep_pstep c shut sh p sh' p' : tstep c shut sh p = (sh', p') -> pstep sh p sh' p' [].
Proof.
  intros H. destruct (flush_step sh p) as [[sh1 r]|] eqn:Hf.
  - rewrite (tstep_flush c shut _ _ _ _ Hf) in H. injection H as <- <-.
    left. exists r. auto using lands_t_after.
  - right. unfold tstep in H. destruct p; try discriminate Hf.
    + (* PIdle *)
      destruct shut; [|destruct (sh_next_tick sh <=? sh_clock sh)]; injection H as <- <-;
        apply buffer_skip; repeat split.
    + (* PLock: a pc of writers only *) injection H as <- <-. apply buffer_skip; repeat split.
    + (* PCheck *)
      destruct (negb (buf_is_empty (sh_buf sh)) && (cf_interval c <=? sh_clock sh - sh_last_flush sh));
        injection H as <- <-; apply buffer_skip; repeat split.
    + (* PTake *) injection H as <- <-. eapply buffer_take; [exact I|apply lands_t_after].
    + (* PShutTake *) injection H as <- <-. eapply buffer_take; [exact I|apply lands_t_after].
    + (* PStopped *) injection H as <- <-. apply buffer_skip; repeat split.
Qed.

Lemma run_invariant (P : state -> Prop) c :
  (forall s i w sh' w' bs, nth_error (st_ws s) i = Some w -> w_moves (st_sh s) w sh' w' bs ->
     P s -> P (mkSt sh' (upd i w' (st_ws s)) (st_tm s) (st_shut s))) ->
  (forall s sh' p', pstep (st_sh s) (st_tm s) sh' p' [] ->
     P s -> P (mkSt sh' (st_ws s) p' (st_shut s))) ->
  (forall s z, P s -> P (mkSt (set_clock (st_sh s) z) (st_ws s) (st_tm s) (st_shut s))) ->
  (forall s, P s -> P (mkSt (st_sh s) (st_ws s) (st_tm s) true)) ->
  forall ls s, P s -> P (run c ls s).
Proof.
  intros Hw Ht Hc Hs. induction ls as [|l t IH]; intros s H; [exact H|]. apply IH.
  destruct l as [i| |d|]; simpl.
  - (* LW i *)
    destruct (nth_error (st_ws s) i) as [w|] eqn:Hn; [|exact H].
    destruct (wstep c (st_sh s) w) as [sh' w'] eqn:E.
    destruct (wstep_pstep _ _ _ _ _ E) as (bs & Hm). exact (Hw s i w _ _ bs Hn Hm H).
  - (* LT *)
    destruct (tstep c (st_shut s) (st_sh s) (st_tm s)) as [sh' p'] eqn:E.
    exact (Ht _ _ _ (tstep_pstep _ _ _ _ _ _ E) H).
  - (* LAdv d *) apply Hc, H.
  - (* LShut *) apply Hs, H.
Qed.

Lemma shared_invariant (Q : shared -> Prop) c :
  (forall sh p sh' p' bs, pstep sh p sh' p' bs -> Q sh -> Q sh') ->
  forall ls s, Q (st_sh s) -> Q (st_sh (run c ls s)).
Proof.
  intros Hp. apply (run_invariant (fun s => Q (st_sh s))); simpl; auto. (* LShut: st_sh stays *)
  - intros s i w sh' w' bs _ [Hs _]. exact (Hp _ _ _ _ _ Hs).
  - intros s sh' p'. apply Hp.
  - intros s z. exact (Hp _ _ _ _ _ (clock_pstep _ z)).
Qed.

Lemma sumw_idle (m : pc -> nat) ws :
  m PIdle = 0%nat -> (forall w, In w ws -> w_pc w = PIdle) ->
  sumw (fun w => m (w_pc w)) ws = 0%nat.
Proof. intros Hm Hw. apply sumw_zero. intros w Hin. rewrite (Hw w Hin). exact Hm. Qed.

(* L + (what the threads hold, counted by m) = R, for quantities L and R of the
   shared state such that every thread step changes L + m pc and R by the same
   amount; `step_bal` says that without subtraction. *)
Section Balance.
  Variables (L R : shared -> nat) (m : pc -> nat).
  Hypothesis step_bal : forall sh p sh' p' bs,
    pstep sh p sh' p' bs -> (L sh' + m p' + R sh = L sh + m p + R sh')%nat.

  Definition balanced (s : state) : Prop :=
    (L (st_sh s) + sumw (fun w => m (w_pc w)) (st_ws s) + m (st_tm s) = R (st_sh s))%nat.

  Lemma balanced_run c ls s : balanced s -> balanced (run c ls s).
  Proof.
    apply (run_invariant balanced); unfold balanced; simpl; auto. (* LShut: only st_shut changes *)
    - (* writer i *) intros s0 i w sh' w' bs Hn [Hs _] Hb.
      pose proof (sumw_upd (fun w => m (w_pc w)) _ _ _ w' Hn) as Hu. simpl in Hu.
      pose proof (step_bal _ _ _ _ _ Hs). lia.
    - (* timer *) intros s0 sh' p' Hs Hb. pose proof (step_bal _ _ _ _ _ Hs). lia.
    - (* clock *) intros s0 z Hb. pose proof (step_bal _ _ _ _ _ (clock_pstep (st_sh s0) z)). lia.
  Qed.

  Lemma balanced_reach c todos ls :
    L init_sh = R init_sh -> m PIdle = 0%nat -> balanced (run c ls (init todos)).
  Proof.
    intros E Hm. apply balanced_run. unfold balanced. simpl.
    rewrite sumw_idle, Hm, E; [lia|exact Hm|]. intros w Hin. apply (init_ws_idle _ _ Hin).
  Qed.
End Balance.

(* rows: appended = catalog + buffer + taken by a flush that has not registered yet *)
Definition rows_bal (r : row) : state -> Prop :=
  balanced (store_cnt r) (app_cnt r) (fun p => cnt r (pc_inflight p)).

Lemma pstep_rows r sh p sh' p' bs : pstep sh p sh' p' bs ->
  (store_cnt r sh' + cnt r (pc_inflight p') + app_cnt r sh
   = store_cnt r sh + cnt r (pc_inflight p) + app_cnt r sh')%nat.
Proof.
  intros H. rewrite (pstep_app_cnt r _ _ _ _ _ H).
  destruct H as [(r0 & Hf & Hl & ->)|B]; [|pose proof (bstep_rows B r); lia].
  destruct (flush_step_frame _ _ _ _ Hf) as (Eb & _). pose proof (flush_step_rows r _ _ _ _ Hf).
  rewrite (lands_inflight _ _ Hl). unfold store_cnt, buf_rows. rewrite Eb. simpl. lia.
Qed.

Lemma rows_bal_reach r c todos ls : rows_bal r (run c ls (init todos)).
Proof. apply balanced_reach; [apply pstep_rows|reflexivity|reflexivity]. Qed.

(* every appended batch belongs to a write that has returned Ok or to a write
   whose own threshold flush is still running *)
Definition acc_bal (r : row) (s : state) : Prop := app_cnt r (st_sh s) = sumw (w_acc r) (st_ws s).

Lemma acc_bal_reach r c todos ls : acc_bal r (run c ls (init todos)).
Proof.
  apply (run_invariant (acc_bal r)); unfold acc_bal; simpl; auto.
  (* LAdv, LShut: neither sh_appended nor a writer changes *)
  - (* writer i *) intros s i w sh' w' bs Hn [Hs Ha] Hb.
    pose proof (sumw_upd (w_acc r) _ _ _ w' Hn). rewrite (pstep_app_cnt r _ _ _ _ _ Hs). specialize (Ha r). lia.
  - (* timer *) intros s sh' p' Hs Hb. rewrite (pstep_app_cnt r _ _ _ _ _ Hs). exact Hb.
  - (* initially *) symmetry. apply sumw_zero. intros w Hin. unfold w_acc.
    destruct (init_ws_idle _ _ Hin) as [-> ->]. reflexivity.
Qed.

(* Conservation, for every interleaving: the rows of all batches appended so
   far = rows in registered chunks ⊎ rows in the buffer ⊎ rows taken by a
   flush that has not registered its chunk yet. *)
Theorem conservation : forall c todos ls,
  let s := run c ls (init todos) in
  Permutation (accepted_rows s) (cat_rows (st_sh s) ++ buf_rows (st_sh s) ++ inflight_rows s).
Proof.
  intros c todos ls s. apply perm_of_cnt. intros r.
  pose proof (rows_bal_reach r c todos ls) as H. fold s in H.
  unfold rows_bal, balanced, app_cnt, store_cnt in H. unfold accepted_rows, inflight_rows.
  rewrite !cnt_app, cnt_flat_map_ws. lia.
Qed.

(* rows of the writes that wait for the threshold flush they triggered *)
Definition pending_own_rows (s : state) : list row :=
  flat_map (fun w => pc_own (w_pc w)) (st_ws s).

(* A write rejected with BufferFull has appended nothing; every other batch
   appended belongs to a write that returned Ok or is about to. *)
Theorem accepted_is_acked_plus_pending : forall c todos ls,
  let s := run c ls (init todos) in
  Permutation (accepted_rows s) (acked_rows s ++ pending_own_rows s).
Proof.
  intros c todos ls s. apply perm_of_cnt. intros r.
  unfold accepted_rows, acked_rows, pending_own_rows.
  rewrite cnt_app, !cnt_flat_map_ws, <- sumw_plus. apply acc_bal_reach.
Qed.

Lemma quiescent_spec s : quiescent s = true ->
  (forall w, In w (st_ws s) -> w_pc w = PIdle) /\ pc_empty (st_tm s)
  /\ bf_batches (sh_buf (st_sh s)) = [].
Proof.
  unfold quiescent. rewrite !andb_true_iff. intros [[Hw Ht] Hb]. split; [|split].
  - intros w Hin. rewrite forallb_forall in Hw. specialize (Hw w Hin).
    destruct (w_pc w); try discriminate. reflexivity.
  - destruct (st_tm s); try discriminate; exact I.
  - unfold buf_is_empty in Hb. destruct (bf_batches (sh_buf (st_sh s))); [reflexivity|discriminate].
Qed.

(* C06, exactly once: when no write and no flush is in progress and the buffer
   is empty, the rows in registered chunks are exactly the rows of the writes
   that returned Ok (as multisets: none missing, none repeated). *)
Theorem exactly_once : forall c todos ls,
  let s := run c ls (init todos) in
  quiescent s = true -> Permutation (acked_rows s) (cat_rows (st_sh s)).
Proof.
  intros c todos ls s Hq. apply perm_of_cnt. intros r.
  pose proof (rows_bal_reach r c todos ls) as H1. pose proof (acc_bal_reach r c todos ls) as H2.
  fold s in H1, H2. destruct (quiescent_spec _ Hq) as (Hw & Ht & Hb).
  unfold rows_bal, balanced, acc_bal, app_cnt, store_cnt, buf_rows in *.
  rewrite Hb, (empty_inflight _ Ht), (sumw_idle (fun p => cnt r (pc_inflight p)) _ eq_refl Hw) in H1.
  rewrite (sumw_plus (fun w => cnt r (res_rows (w_res w))) (fun w => cnt r (pc_own (w_pc w)))),
    (sumw_idle (fun p => cnt r (pc_own p)) _ eq_refl Hw) in H2.
  unfold acked_rows. rewrite cnt_flat_map_ws. simpl in H1. lia.
Qed.

(* the metadata is what `mk_chunk` computes from the rows *)
Definition meta_computed (c : chunk) : Prop :=
  k_count c = N.of_nat (length (k_rows c)) /\
  k_min c = or0 (ts_min (k_rows c)) /\ k_max c = or0 (ts_max (k_rows c)).

Definition chunk_ok (sh : shared) (c : chunk) : Prop :=
  meta_computed c /\ In (k_id c, k_rows c) (sh_objs sh).

Definition pc_chunks (p : pc) : list chunk :=
  match p with PReg c _ | PAnn c _ => [c] | _ => [] end.

Lemma nochunk_chunks p : pc_nochunk p -> pc_chunks p = [].
Proof. destruct p; simpl; intros H; try reflexivity; contradiction. Qed.

(* objects are never removed, so a chunk that is in order stays in order; the
   catalog and the stepping thread hold the chunks they held, except that PUT
   creates one and registration moves it into the catalog *)
Lemma pstep_chunks sh p sh' p' bs : pstep sh p sh' p' bs ->
  Forall (chunk_ok sh) (sh_cat sh) -> Forall (chunk_ok sh) (pc_chunks p) ->
  (forall ch, chunk_ok sh ch -> chunk_ok sh' ch) /\
  Forall (chunk_ok sh') (sh_cat sh') /\ Forall (chunk_ok sh') (pc_chunks p').
Proof.
  revert sh p sh' p' bs. refine (pstep_store_cases _ _ _ _ _).
  - (* PPut *) intros sh bs k c Hc _.
    assert (Hm : forall ch, chunk_ok sh ch -> chunk_ok (put_obj sh c) ch).
    { intros ch [Hmeta Ho]. split; [exact Hmeta|]. apply in_or_app. left. exact Ho. }
    split; [exact Hm|]. split; [exact (Forall_impl _ Hm Hc)|].
    repeat constructor. apply in_or_app. right. left. reflexivity.
  - (* PReg *) intros sh c k Hc Hp. split; [auto|]. split; [apply Forall_app; split|]; assumption.
  - (* PAnn *) intros sh c k Hc _. split; [auto|]. split; [exact Hc|constructor].
  - (* no chunk involved *) intros sh p sh' p' Hs _ Hp' Hc _.
    unfold chunk_ok. rewrite (same_cat Hs), (same_objs Hs), (nochunk_chunks _ Hp'). auto.
Qed.

Definition chunks_inv (s : state) : Prop :=
  Forall (chunk_ok (st_sh s)) (sh_cat (st_sh s)) /\
  Forall (fun w => Forall (chunk_ok (st_sh s)) (pc_chunks (w_pc w))) (st_ws s) /\
  Forall (chunk_ok (st_sh s)) (pc_chunks (st_tm s)).

Lemma chunks_inv_reach c todos ls : chunks_inv (run c ls (init todos)).
Proof.
  apply (run_invariant chunks_inv); unfold chunks_inv; simpl; auto.
  (* LAdv, LShut: store, catalog and pcs stay *)
  - (* writer i *) intros s i w sh' w' bs Hn [Hs _] (Hc & Hw & Ht).
    destruct (pstep_chunks _ _ _ _ _ Hs Hc (Forall_nth_error Hw Hn)) as (Hm & Hc' & Hw').
    split; [exact Hc'|]. split; [|apply (Forall_impl _ Hm), Ht].
    apply Forall_upd; [|exact Hw']. eapply Forall_impl; [|exact Hw]. intros x. apply Forall_impl, Hm.
  - (* timer *) intros s sh' p' Hs (Hc & Hw & Ht).
    destruct (pstep_chunks _ _ _ _ _ Hs Hc Ht) as (Hm & Hc' & Ht').
    split; [exact Hc'|]. split; [|exact Ht'].
    eapply Forall_impl; [|exact Hw]. intros x. apply Forall_impl, Hm.
  - (* initially *) split; [constructor|]. split; [|constructor].
    apply Forall_forall. intros w Hin. destruct (init_ws_idle _ _ Hin) as [-> _]. constructor.
Qed.

(* ts_min and ts_max are the same recursion `ext` with Z.min resp. Z.max for
   `pick`: the result is the timestamp of some row, and comes `before` that of
   every row *)
Section Extremum.
  Variables (pick : Z -> Z -> Z) (before : Z -> Z -> Prop) (ext : list row -> option Z).
  Hypothesis ext_nil : ext [] = None.
  Hypothesis ext_cons : forall r t,
    ext (r :: t) = match ext t with None => Some (r_ts r) | Some m => Some (pick (r_ts r) m) end.
  Hypothesis pick_one : forall a b, pick a b = a \/ pick a b = b.
  Hypothesis pick_l : forall a b, before (pick a b) a.
  Hypothesis pick_r : forall a b x, before b x -> before (pick a b) x.
  Hypothesis before_refl : forall a, before a a.

  Lemma extremum_spec l : l <> [] ->
    exists m, ext l = Some m /\ (exists r, In r l /\ r_ts r = m) /\ forall r, In r l -> before m (r_ts r).
  Proof.
    induction l as [|a t IH]; intros Hne; [contradiction|]. rewrite ext_cons. destruct t as [|b t'].
    - rewrite ext_nil. exists (r_ts a). split; [reflexivity|]. split.
      + exists a. split; [left|]; reflexivity.
      + intros r [<-|[]]. apply before_refl.
    - destruct IH as (m & -> & (r0 & Hin & Hr0) & Hb); [discriminate|].
      exists (pick (r_ts a) m). split; [reflexivity|]. split.
      + destruct (pick_one (r_ts a) m) as [->| ->]; [exists a|exists r0]; simpl; auto.
      + intros r [<-|Hr]; auto.
  Qed.
End Extremum.

Lemma ts_min_spec l : l <> [] ->
  exists m, ts_min l = Some m /\ (exists r, In r l /\ r_ts r = m) /\ forall r, In r l -> m <= r_ts r.
Proof. apply (extremum_spec Z.min Z.le ts_min eq_refl (fun _ _ => eq_refl)); intros; lia. Qed.

Lemma ts_max_spec l : l <> [] ->
  exists m, ts_max l = Some m /\ (exists r, In r l /\ r_ts r = m) /\ forall r, In r l -> r_ts r <= m.
Proof. apply (extremum_spec Z.max (fun m x => x <= m) ts_max eq_refl (fun _ _ => eq_refl)); intros; lia. Qed.

(* what a catalog entry says about the rows of its chunk *)
Definition meta_exact_for (c : chunk) : Prop :=
  k_count c = N.of_nat (length (k_rows c)) /\
  (k_rows c <> [] ->
     (exists r, In r (k_rows c) /\ r_ts r = k_min c) /\
     (exists r, In r (k_rows c) /\ r_ts r = k_max c) /\
     (forall r, In r (k_rows c) -> k_min c <= r_ts r <= k_max c)) /\
  (k_rows c = [] -> k_min c = 0 /\ k_max c = 0).

Lemma meta_computed_exact c : meta_computed c -> meta_exact_for c.
Proof.
  intros (Hc & Hmin & Hmax). split; [exact Hc|]. split.
  - intros Hne. destruct (ts_min_spec _ Hne) as (m & Em & Hin & Hle).
    destruct (ts_max_spec _ Hne) as (M & EM & HinM & HleM).
    rewrite Em in Hmin. rewrite EM in Hmax. simpl in Hmin, Hmax. rewrite Hmin, Hmax.
    split; [exact Hin|]. split; [exact HinM|]. intros r Hr. split; [apply Hle|apply HleM]; exact Hr.
  - intros E. rewrite E in Hmin, Hmax. simpl in Hmin, Hmax. auto.
Qed.

(* C06, exact metadata: every catalog entry, in every reachable state, states
   the true row count and the true minimum and maximum timestamp of the rows
   of the object stored under its id. *)
Theorem meta_exact : forall c todos ls ch,
  let s := run c ls (init todos) in
  In ch (sh_cat (st_sh s)) ->
  meta_exact_for ch /\ In (k_id ch, k_rows ch) (sh_objs (st_sh s)).
Proof.
  intros c todos ls ch s Hin.
  destruct (chunks_inv_reach c todos ls) as (Hc & _). fold s in Hc.
  rewrite Forall_forall in Hc. destruct (Hc ch Hin) as [Hm Ho].
  split; [apply meta_computed_exact; exact Hm|exact Ho].
Qed.

(* Announcements are counted through a key of chunks: with the id as key the
   counts bound how often an id occurs, with the chunk itself they compare the
   channel with the catalog. *)
Section Keyed.
  Context {K : Type}.
  Variable key : chunk -> K.
  Variable K_dec : forall a b : K, {a = b} + {a <> b}.

  Definition cntK (x : K) (l : list chunk) : nat := count_occ K_dec (map key l) x.
  Definition hit (x : K) (c : chunk) : nat := if K_dec (key c) x then 1%nat else 0%nat.

  Lemma cntK_snoc x l c : cntK x (l ++ [c]) = (cntK x l + hit x c)%nat.
  Proof.
    unfold cntK, hit. rewrite map_app, count_occ_app. simpl.
    destruct (K_dec (key c) x); reflexivity.
  Qed.

  Definition pc_annK (x : K) (p : pc) : nat := match p with PAnn c _ => hit x c | _ => 0%nat end.

  Lemma annK_nochunk x p : pc_nochunk p -> pc_annK x p = 0%nat.
  Proof. destruct p; simpl; intros H; try reflexivity; contradiction. Qed.

  (* registered = announced + registered-but-not-yet-announced *)
  Definition ann_bal (x : K) : state -> Prop :=
    balanced (fun sh => cntK x (sh_ann sh)) (fun sh => cntK x (sh_cat sh)) (pc_annK x).

  Lemma ann_bal_reach x c todos ls : ann_bal x (run c ls (init todos)).
  Proof.
    apply balanced_reach; [|reflexivity|reflexivity].
    apply pstep_store_cases; simpl.
    - (* PPut *) intros. lia.
    - (* PReg *) intros. rewrite cntK_snoc. lia.
    - (* PAnn *) intros. rewrite cntK_snoc. lia.
    - (* no chunk involved *) intros sh p sh' p' Hs Hp Hp'.
      rewrite (same_cat Hs), (same_ann Hs), !annK_nochunk by assumption. reflexivity.
  Qed.
End Keyed.

Definition chunk_eq_dec : forall a b : chunk, {a = b} + {a <> b}.
Proof.
  decide equality; try apply Z.eq_dec; try apply N.eq_dec. apply list_eq_dec. apply row_eq_dec.
Defined.

Definition pc_regN (n : N) (p : pc) : nat :=
  match p with PReg c _ => hit k_id N.eq_dec n c | _ => 0%nat end.

Lemma regN_nochunk n p : pc_nochunk p -> pc_regN n p = 0%nat.
Proof. destruct p; simpl; intros H; try reflexivity; contradiction. Qed.

Lemma b2n_lt_succ n m :
  Nat.b2n (n <? m + 1)%N = (Nat.b2n (n <? m)%N + (if N.eq_dec m n then 1 else 0))%nat.
Proof.
  destruct (N.ltb_spec n (m + 1)); destruct (N.ltb_spec n m); destruct (N.eq_dec m n); simpl; lia.
Qed.

(* uniqueness of chunk ids: every id below the fresh counter is in exactly one
   place — waiting to be registered, or in the catalog *)
Definition reg_bal (n : N) : state -> Prop :=
  balanced (fun sh => cntK k_id N.eq_dec n (sh_cat sh)) (fun sh => Nat.b2n (n <? sh_next sh)%N) (pc_regN n).

Lemma reg_bal_reach n c todos ls : reg_bal n (run c ls (init todos)).
Proof.
  apply balanced_reach; [| |reflexivity].
  - apply pstep_store_cases; simpl.
    + (* PPut: the chunk takes the fresh id *) intros. rewrite b2n_lt_succ. unfold hit; simpl. lia.
    + (* PReg *) intros. rewrite cntK_snoc. lia.
    + (* PAnn *) intros. lia.
    + (* no chunk involved *) intros sh p sh' p' Hs Hp Hp'.
      rewrite (same_cat Hs), (same_next Hs), !regN_nochunk by assumption. reflexivity.
  - simpl. destruct (N.ltb_spec n 0); [lia|reflexivity].
Qed.

Lemma tann_reach c todos ls :
  let s := run c ls (init todos) in sh_tann (st_sh s) = sh_ann (st_sh s).
Proof.
  apply (shared_invariant (fun sh => sh_tann sh = sh_ann sh)); auto.
  apply (pstep_store_cases (fun sh _ sh' _ => sh_tann sh = sh_ann sh -> sh_tann sh' = sh_ann sh'));
    simpl.
  - (* PPut *) auto.
  - (* PReg *) auto.
  - (* PAnn: one send on each channel *) intros sh ch k E. rewrite E. reflexivity.
  - intros sh _ sh' _ Hs _ _. rewrite (same_ann Hs), (same_tann Hs). exact (fun E => E).
Qed.

(* C06, announcements: the legacy and the topic channel carry the same
   sequence; chunk ids in the catalog are pairwise distinct; every announced
   chunk is a registered chunk and is announced at most once; and once no
   flush is in progress every registered chunk has been announced exactly
   once. *)
Theorem one_announcement_per_chunk : forall c todos ls,
  let s := run c ls (init todos) in
  sh_tann (st_sh s) = sh_ann (st_sh s) /\
  NoDup (map k_id (sh_cat (st_sh s))) /\
  NoDup (map k_id (sh_ann (st_sh s))) /\
  (forall ch, In ch (sh_ann (st_sh s)) -> In ch (sh_cat (st_sh s))) /\
  (quiescent s = true -> Permutation (sh_ann (st_sh s)) (sh_cat (st_sh s))).
Proof.
  intros c todos ls s.
  pose proof (fun n => reg_bal_reach n c todos ls) as HB.
  pose proof (fun n => ann_bal_reach k_id N.eq_dec n c todos ls) as HAn.
  pose proof (fun ch => ann_bal_reach (fun x => x) chunk_eq_dec ch c todos ls) as HAc.
  fold s in HB, HAn, HAc. unfold reg_bal, ann_bal, balanced, cntK in *.
  split; [apply tann_reach|].
  assert (Hle : forall n, (count_occ N.eq_dec (map k_id (sh_cat (st_sh s))) n <= 1)%nat).
  { intros n. specialize (HB n). destruct (n <? sh_next (st_sh s))%N; simpl in HB; lia. }
  split; [|split; [|split]].
  - apply (NoDup_count_occ N.eq_dec), Hle.
  - apply (NoDup_count_occ N.eq_dec). intros n. specialize (HAn n). specialize (Hle n). lia.
  - intros ch Hin. specialize (HAc ch). rewrite !map_id in HAc.
    apply (count_occ_In chunk_eq_dec). apply (count_occ_In chunk_eq_dec) in Hin. lia.
  - intros Hq. destruct (quiescent_spec _ Hq) as (Hw & Ht & _).
    apply (Permutation_count_occ chunk_eq_dec). intros ch. specialize (HAc ch).
    rewrite !map_id, (sumw_idle _ _ eq_refl Hw), (annK_nochunk _ _ _ _ (empty_nochunk _ Ht)) in HAc. lia.
Qed.

Theorem buffer_counters_exact : forall c todos ls,
  buf_ok (sh_buf (st_sh (run c ls (init todos)))).
Proof.
  intros c todos ls. apply (shared_invariant (fun sh => buf_ok (sh_buf sh))); auto using buf_ok_empty.
  intros sh p sh' p' bs [(r & Hf & _)|B]; [|exact (bstep_buf_ok B)].
  destruct (flush_step_frame _ _ _ _ Hf) as (-> & _). auto.
Qed.

Lemma run_app c l1 l2 s : run c (l1 ++ l2) s = run c l2 (run c l1 s).
Proof. apply fold_left_app. Qed.

Lemma is_run_after_step c l (f : state -> state) :
  (forall s, exists ls, f s = run c ls s) -> forall s, exists ls, f (step c l s) = run c ls s.
Proof. intros H s. destruct (H (step c l s)) as [ls E]. exists (l :: ls). exact E. Qed.

Lemma settle_w_is_run c fuel i : forall s, exists ls, settle_w c fuel i s = run c ls s.
Proof.
  induction fuel as [|f IH]; intros s; cbn [settle_w]; [exists []; reflexivity|].
  destruct (nth_error (st_ws s) i) as [w|]; [|exists []; reflexivity].
  destruct (w_parked w); [exists []; reflexivity|apply is_run_after_step, IH].
Qed.

Lemma settle_t_is_run c fuel : forall s, exists ls, settle_t c fuel s = run c ls s.
Proof.
  induction fuel as [|f IH]; intros s; cbn [settle_t]; [exists []; reflexivity|].
  destruct (t_parked s); [exists []; reflexivity|apply is_run_after_step, IH].
Qed.

Lemma macro_is_run c l : forall s, exists ls, macro c l s = run c ls s.
Proof. destruct l; cbn [macro]; apply is_run_after_step; auto using settle_w_is_run, settle_t_is_run. Qed.

(* every run at the granularity the harness drives the implementation at is
   one of the step-level runs the theorems quantify over *)
Theorem macro_run_is_run : forall c ms s, exists ls, macro_run c ms s = run c ls s.
Proof.
  intros c ms. induction ms as [|m t IH]; intros s; [exists []; reflexivity|].
  destruct (macro_is_run c m s) as [l1 H1]. destruct (IH (macro c m s)) as [l2 H2].
  exists (l1 ++ l2). rewrite run_app, <- H1. exact H2.
Qed.

(* Non-vacuity: a concrete two-writer run reaches quiescence with three
   chunks: two schema-change flushes by writer 0, each overlapping an append by
   writer 1, then a timer flush; the shutdown take finds the buffer empty. *)
Definition ex_cfg : cfg := mkCfg 3%N 1000%N 10000%N 10.
Definition ex_b (sch : N) (ids : list (N * Z)) : batch :=
  mkBatch sch (map (fun p => mkRow (fst p) (snd p)) ids) 10%N.
Definition ex_todos : list (list batch) :=
  [ [ex_b 1%N [(1%N, 5); (2%N, -3)]; ex_b 2%N [(3%N, 7)]];
    [ex_b 1%N [(4%N, 9); (5%N, 1)]; ex_b 2%N [(6%N, 2)]] ].
Definition ex_sched : list label :=
  [LT; LW 0; LW 0; LW 1; LW 0; LW 1; LW 0; LAdv 10; LT; LShut].
Definition ex_final : state := macro_run ex_cfg ex_sched (init ex_todos).

Example ex_reaches_quiescence :
  quiescent ex_final = true /\ length (sh_cat (st_sh ex_final)) = 3%nat
  /\ length (acked_rows ex_final) = 6%nat.
Proof. vm_compute. repeat split. Qed.
