(* Proofs/IngestDurProofs.v — C01: for every schedule of writer / timer /
   recovery steps, storage faults and crashes on which the classifier does not
   fire, every row of every acknowledged write is in the catalog or in a WAL
   entry that the next recovery replays (Durable); plus the refutation
   witnesses of the full statement.

   Invariant inv (while the classifier flag is 0), with
     Lset = batches that exist in volatile memory and may belong to
         acknowledged writes: buffer, taken by a running flush, waiting to be
         replayed, dropped by a failed flush;
     live = Lset and the batches a writer has logged but not buffered yet (the
         model's pc_live over all threads):
   i_live: every element of live has its WAL entry on disk and a sequence
       number above the persisted mark;
   i_acked: every acknowledged batch is in the catalog or in Lset (process
       up) / on disk above the mark (process down);
   i_safe: a flush that has read last_wal_seq = S (and will truncate / persist
       with it) has S below every element of live and below next_seq;
   the other fields are bookkeeping: WAL sequence numbers strictly increase
   and stay below next_seq, last_wal_seq < next_seq, the threshold path's own
   batch is among the taken ones / in the catalog, recovery's bounds.  Batches
   are compared by key = (sequence number, rows): a replayed copy differs from
   the original only in its memory size. *)
From CS Require Import Base.Prelude Base.ListFacts Model.Ingest Model.IngestDur.
Open Scope N_scope.

Definition skey (e : sb) : N * list row := (fst e, b_rows (snd e)).
Definition InK (e : sb) (l : list sb) : Prop := In (skey e) (map skey l).

Lemma InK_intro e l : In e l -> InK e l.
Proof. intros H. unfold InK. apply in_map. exact H. Qed.

Lemma InK_elim e l : InK e l -> exists x, In x l /\ skey x = skey e.
Proof. unfold InK. intros H. apply in_map_iff in H. destruct H as (x & E & Hx). exists x; auto. Qed.

Lemma InK_app e l1 l2 : InK e (l1 ++ l2) <-> InK e l1 \/ InK e l2.
Proof. unfold InK. rewrite map_app, in_app_iff. tauto. Qed.

Lemma InK_key_eq e e' l : skey e = skey e' -> InK e l -> InK e' l.
Proof. unfold InK. intros E H. rewrite <- E. exact H. Qed.

Lemma skey_fst x e : skey x = skey e -> fst x = fst e.
Proof. unfold skey. congruence. Qed.

Lemma InK_incl e l1 l2 : (forall x, In x l1 -> In x l2) -> InK e l1 -> InK e l2.
Proof.
  intros H Hk. destruct (InK_elim _ _ Hk) as (x & Hx & E). eapply InK_key_eq; [exact E|].
  apply InK_intro. apply H. exact Hx.
Qed.

Lemma sb_rows_in l x r : In x l -> In r (b_rows (snd x)) -> In r (sb_rows l).
Proof.
  unfold sb_rows, rows_of. intros Hx Hr. apply in_flat_map. exists (snd x). split; [|exact Hr].
  apply in_map. exact Hx.
Qed.

Lemma InK_rows e l r : InK e l -> In r (b_rows (snd e)) -> In r (sb_rows l).
Proof.
  intros H Hr. destruct (InK_elim _ _ H) as (x & Hx & E). unfold skey in E. inversion E as [[E1 E2]].
  apply (sb_rows_in l x r Hx). rewrite E2. exact Hr.
Qed.

Fixpoint ssorted (l : list N) : Prop :=
  match l with [] => True | x :: r => (forall y, In y r -> x < y) /\ ssorted r end.

Lemma ssorted_app l1 l2 :
  ssorted (l1 ++ l2) <-> ssorted l1 /\ ssorted l2 /\ (forall x y, In x l1 -> In y l2 -> x < y).
Proof.
  induction l1 as [|a r IH]; simpl.
  - split; [intros H; repeat split; auto; intros x y []|intros (_ & H & _); exact H].
  - rewrite IH. split.
    + intros (Ha & H1 & H2 & H3). split; [split; [|exact H1]|split; [exact H2|]].
      * intros y Hy. apply Ha. apply in_or_app. left; exact Hy.
      * intros x y [E|Hx] Hy; [subst; apply Ha; apply in_or_app; right; exact Hy|apply H3; assumption].
    + intros ((Ha & H1) & H2 & H3). split; [|split; [exact H1|split; [exact H2|]]].
      * intros y Hy. apply in_app_or in Hy. destruct Hy as [Hy|Hy]; [apply Ha; exact Hy|apply H3; [left; reflexivity|exact Hy]].
      * intros x y Hx Hy. apply H3; [right; exact Hx|exact Hy].
Qed.

Definition wal_seqs (l : list wentry) : list N := map we_seq l.
Definition wal_sorted (d : durable) : Prop := ssorted (wal_seqs (wal_entries d)).

Lemma last_seq_in sg l : last_seq sg = Some l -> In l (wal_seqs sg).
Proof.
  induction sg as [|a r IH]; [discriminate|]. destruct r as [|b r']; intros H.
  - inversion H. left; reflexivity.
  - right. apply IH. exact H.
Qed.

Lemma last_seq_max sg l : ssorted (wal_seqs sg) -> last_seq sg = Some l -> forall x, In x sg -> we_seq x <= l.
Proof.
  induction sg as [|a r IH]; [discriminate|]. intros [Ha Hs] Hl x [<-|Hx].
  - destruct r as [|b r']; [inversion Hl; apply N.le_refl|].
    apply N.lt_le_incl, Ha, last_seq_in. exact Hl.
  - destruct r as [|b r']; [destruct Hx|]. apply IH; assumption.
Qed.

Lemma last_seq_empty sg : last_seq sg = None -> sg = [].
Proof.
  induction sg as [|a r IH]; [reflexivity|]. destruct r as [|b r']; [discriminate|].
  intros H. discriminate (IH H).
Qed.

(* truncation removes a prefix of the entries, all of them below the bound *)
Lemma trunc_split b segs : exists pre, concat segs = pre ++ concat (trunc b segs) /\
  (ssorted (wal_seqs (concat segs)) -> forall x, In x pre -> we_seq x < b).
Proof.
  induction segs as [|sg r (pre & E & Hlt)]; simpl; [exists []; split; [reflexivity|intros _ x []]|].
  destruct (last_seq sg) as [l|] eqn:El.
  - destruct (l <? b) eqn:Elb; [|exists []; split; [reflexivity|intros _ x []]].
    exists (sg ++ pre). split; [rewrite E, app_assoc; reflexivity|]. intros Hs x Hx.
    unfold wal_seqs in Hs. rewrite map_app in Hs. apply ssorted_app in Hs. destruct Hs as (Hs1 & Hs2 & _).
    apply in_app_or in Hx. destruct Hx as [Hx|Hx]; [|exact (Hlt Hs2 x Hx)].
    apply N.ltb_lt in Elb. pose proof (last_seq_max sg l Hs1 El x Hx). lia.
  - apply last_seq_empty in El. subst sg. exists pre. split; [exact E|exact Hlt].
Qed.

Lemma trunc_keeps b segs : ssorted (wal_seqs (concat segs)) ->
  forall x, In x (concat segs) -> b <= we_seq x -> In x (concat (trunc b segs)).
Proof.
  intros Hs x Hx Hb. destruct (trunc_split b segs) as (pre & E & Hlt). rewrite E in Hx.
  apply in_app_or in Hx. destruct Hx as [Hx|Hx]; [|exact Hx]. specialize (Hlt Hs x Hx). lia.
Qed.

Lemma trunc_incl b segs x : In x (concat (trunc b segs)) -> In x (concat segs).
Proof. destruct (trunc_split b segs) as (pre & -> & _). intros H. apply in_or_app. right. exact H. Qed.

Lemma trunc_sorted b segs act : ssorted (wal_seqs (concat segs ++ act)) -> ssorted (wal_seqs (concat (trunc b segs) ++ act)).
Proof.
  destruct (trunc_split b segs) as (pre & -> & _). unfold wal_seqs. rewrite <- app_assoc, map_app.
  intros H. apply ssorted_app in H. apply H.
Qed.

(* pc_L: the volatile batches at a pc that may belong to acknowledged writes
   (its share of Lset).  What pc_live holds beyond them are batches a writer has
   logged but not buffered yet. *)
Definition cont_rest (k : dcont) : list sb := match k with DRecover rest _ _ => rest | _ => [] end.
Definition pc_L (p : dpc) : list sb :=
  match p with
  | QPut bs k | QReg bs k => bs ++ cont_rest k
  | QLoad k | QTrunc _ k | QPersist _ k | QFin k => cont_rest k
  | QScan rest _ _ => rest
  | _ => []
  end.

Definition pcs (s : dstate) : list dpc := map dw_pc (ds_ws s) ++ [ds_tm s; ds_rec s].
Definition vL (v : volatile) : list sb := db_items (v_buf v) ++ v_dropped v.
Definition Lset (s : dstate) : list sb := vL (ds_v s) ++ flat_map pc_L (pcs s).
Definition live (s : dstate) : list sb := vL (ds_v s) ++ flat_map pc_live (pcs s).

Lemma pc_L_live p x : In x (pc_L p) -> In x (pc_live p).
Proof.
  assert (Hk : forall k, In x (cont_rest k) -> In x (cont_live k)) by (intros k; destruct k; simpl; auto).
  destruct p; simpl; rewrite ?in_app_iff; auto; specialize (Hk k); tauto.
Qed.

Lemma Lset_live s x : In x (Lset s) -> In x (live s).
Proof.
  unfold Lset, live. rewrite !in_app_iff, !in_flat_map. intros [H|(p & Hp & H)]; [left; exact H|right].
  exists p. split; [exact Hp|apply pc_L_live; exact H].
Qed.

Lemma unsafe_live s x : In x (unsafe_sbs s) <-> In x (live s).
Proof.
  unfold unsafe_sbs, live, vL, pcs. rewrite flat_map_app, flat_map_map. simpl.
  rewrite app_nil_r, !in_app_iff. tauto.
Qed.

Lemma covers_false m l : covers m l = false -> forall x, In x l -> m < fst x.
Proof.
  unfold covers. intros H x Hx. destruct (fst x <=? m) eqn:E.
  - exfalso. rewrite (proj2 (existsb_exists _ l)) in H; [discriminate|]. exists x. split; [exact Hx|exact E].
  - apply N.leb_gt in E. exact E.
Qed.

Lemma classify_zero s : classify s = 0 -> forall x, In x (live s) -> v_lws (ds_v s) < fst x.
Proof.
  unfold classify. intros H x Hx.
  destruct (covers (v_lws (ds_v s)) (v_dropped (ds_v s))); [discriminate|].
  destruct (covers (v_lws (ds_v s)) (unsafe_sbs s)) eqn:E; [discriminate|].
  apply (covers_false _ _ E). apply unsafe_live. exact Hx.
Qed.

Lemma set_flag_zero s p : set_flag s p = 0 -> forall k, p = QLoad k -> classify s = 0.
Proof.
  unfold set_flag. intros H k ->. destruct (ds_flag s =? 0) eqn:E; [exact H|].
  apply N.eqb_neq in E. contradiction.
Qed.

Lemma upd_nth_split {A} (l : list A) : forall j a a', nth_error l j = Some a ->
  exists l1 l2, l = l1 ++ a :: l2 /\ upd j a' l = l1 ++ a' :: l2.
Proof.
  induction l as [|y r IH]; intros [|j] a a' H; simpl in *; try discriminate.
  - inversion H; subst. exists [], r. split; reflexivity.
  - destruct (IH j a a' H) as (l1 & l2 & E1 & E2). exists (y :: l1), l2. simpl. rewrite <- E1, E2. split; reflexivity.
Qed.

(* the element between l1 and l2 goes from a to a': whatever V and a hold is
   afterwards in V' or a', or satisfies Q *)
Lemma flat_swap {A B} (f : A -> list B) l1 l2 a a' (V V' : list B) (Q : B -> Prop) :
  (forall x, In x (V ++ f a) -> In x (V' ++ f a') \/ Q x) ->
  forall x, In x (V ++ flat_map f (l1 ++ a :: l2)) -> In x (V' ++ flat_map f (l1 ++ a' :: l2)) \/ Q x.
Proof.
  intros H x. specialize (H x). rewrite !flat_map_app. simpl. rewrite !in_app_iff in *. tauto.
Qed.

Lemma Forall_swap {A} (P Q : A -> Prop) l1 l2 a a' :
  Forall P (l1 ++ a :: l2) -> (forall y, P y -> Q y) -> Q a' -> Forall Q (l1 ++ a' :: l2).
Proof.
  rewrite !Forall_app, !Forall_cons_iff. intros (H1 & _ & H2) Himp Ha.
  split; [|split; [exact Ha|]]; eapply Forall_impl; eauto.
Qed.

(* whose program a pc belongs to; kind o p: a thread of role o may stand at p *)
Inductive role := OfWriter | OfTimer | OfRecovery.

Definition cont_role (k : dcont) : role :=
  match k with
  | DRetry _ | DDone _ => OfWriter
  | DTimer | DShutK => OfTimer
  | DRecover _ _ _ => OfRecovery
  end.

Definition pc_cont (p : dpc) : option dcont :=
  match p with
  | QPut _ k | QReg _ k | QLoad k | QTrunc _ k | QPersist _ k | QFin k => Some k
  | _ => None
  end.

(* QIdle is shared; a pc inside flush_batches belongs to whoever called it *)
Definition pc_role (p : dpc) : option role :=
  match p with
  | QIdle => None
  | QWal _ | QSeq _ | QLock _ | QRelock _ => Some OfWriter
  | QCheck | QTake | QShutTake | QStopped => Some OfTimer
  | QScan _ _ _ | QRFinish _ _ => Some OfRecovery
  | QPut _ k | QReg _ k | QLoad k | QTrunc _ k | QPersist _ k | QFin k => Some (cont_role k)
  end.

Definition kind (o : role) (p : dpc) : Prop :=
  match pc_role p with Some o' => o' = o | None => True end.

Definition res_kind (o : role) (r : dfres) : Prop :=
  match r with GPc q => kind o q | GOk k | GErr k => cont_role k = o end.

(* what dflush_step returns at each of the six pcs of flush_batches *)
Inductive flush_case (hw : bool) (d : durable) (v : volatile) : dpc -> durable -> volatile -> dfres -> Prop :=
| FcPut bs k : flush_case hw d v (QPut bs k) d v (GPc (QReg bs k))
| FcPutErr bs k : flush_case hw d v (QPut bs k) d (add_dropped v bs) (GErr k)
| FcReg bs k : flush_case hw d v (QReg bs k) (add_cat d bs) v (GPc (QLoad k))
| FcRegErr bs k : flush_case hw d v (QReg bs k) d (add_dropped v bs) (GErr k)
| FcRegLate bs k : flush_case hw d v (QReg bs k) (add_cat d bs) v (GErr k)
| FcLoad k : flush_case hw d v (QLoad k) d v (GPc (QTrunc (v_lws v) k))
| FcTrunc m k : flush_case hw d v (QTrunc m k) (if hw then set_segs d (trunc m (d_segs d)) else d) v (GPc (QPersist m k))
| FcNoTrunc m k : flush_case hw d v (QTrunc m k) d v (GOk k)
| FcPersist m k : flush_case hw d v (QPersist m k) (set_flushed d m) (set_lfs v m) (GPc (QFin k))
| FcFin k : flush_case hw d v (QFin k) d v (GOk k).

Lemma dflush_step_cases hw f d v p d' v' r :
  dflush_step hw f d v p = Some (d', v', r) -> flush_case hw d v p d' v' r.
Proof.
  destruct p; try discriminate; simpl.
  - (* QPut *) destruct f; intros H; inversion H; constructor.
  - (* QReg *) destruct f; intros H; inversion H; constructor.
  - (* QLoad *) intros H; inversion H; constructor.
  - (* QTrunc *) destruct (0 <? s); intros H; inversion H; constructor.
  - (* QPersist *) intros H; inversion H; constructor.
  - (* QFin *) intros H; inversion H; constructor.
Qed.

Lemma flush_kind o hw f d v p d' v' r :
  dflush_step hw f d v p = Some (d', v', r) -> kind o p -> res_kind o r.
Proof. intros H Hk. destruct (dflush_step_cases _ _ _ _ _ _ _ _ H); exact Hk. Qed.

Lemma flush_none hw f d v p : dflush_step hw f d v p = None -> pc_cont p = None.
Proof.
  destruct p; try reflexivity; simpl;
    [destruct f (* QPut *)|destruct f (* QReg *)| |destruct (0 <? _) (* QTrunc *)| |]; discriminate.
Qed.

(* the WAL entry a step appends, and the batch its writer then holds *)
Definition appended (v : volatile) (p : dpc) : list wentry :=
  match p with QWal r => [mkWe (v_next v) (rq_b r) (rq_len r) (rq_rsize r)] | _ => [] end.
Definition logged (v : volatile) (p : dpc) : list sb :=
  match p with QWal r => [(v_next v, rq_b r)] | _ => [] end.

(* the bound a step may truncate the closed segments with; trunc 0 removes nothing *)
Definition trunc_bound (p : dpc) : N :=
  match p with QTrunc s _ => s | QRFinish _ fl0 => fl0 + 1 | _ => 0 end.

Lemma trunc_bound_cases p :
  trunc_bound p = 0 \/ (exists m k, p = QTrunc m k /\ trunc_bound p = m)
  \/ (exists maxs fl0, p = QRFinish maxs fl0 /\ trunc_bound p = fl0 + 1).
Proof. destruct p; simpl; eauto 6. Qed.

Lemma trunc_0 segs : trunc 0 segs = segs.
Proof.
  induction segs as [|sg r IH]; simpl; [reflexivity|].
  destruct (last_seq sg) as [[|l]|]; [reflexivity|reflexivity|rewrite IH; reflexivity].
Qed.

Lemma logged_appended v p x : In x (logged v p) ->
  fst x = v_next v /\ (forall m k, p <> QPersist m k) /\
  exists y, In y (appended v p) /\ skey (we_sb y) = skey x.
Proof.
  destruct p; simpl; try contradiction. intros [<-|[]].
  split; [reflexivity|]. split; [discriminate|]. eexists. split; [left; reflexivity|reflexivity].
Qed.

Lemma appended_seq v p y : In y (appended v p) -> we_seq y = v_next v /\ length (appended v p) = 1%nat.
Proof. destruct p; simpl; try contradiction. intros [<-|[]]. split; reflexivity. Qed.

Lemma appended_sorted v p : ssorted (wal_seqs (appended v p)).
Proof. destruct p; simpl; auto. split; [intros y []|exact I]. Qed.

(* the threshold path's own batch is among the taken ones until they are
   registered, and in the catalog afterwards *)
Definition own_ok (d : durable) (p : dpc) : Prop :=
  match p with
  | QPut bs (DDone e) | QReg bs (DDone e) => In e bs
  | QLoad (DDone e) | QTrunc _ (DDone e) | QPersist _ (DDone e) | QFin (DDone e) => InK e (cat_sbs d)
  | _ => True
  end.

(* p is past register_chunk in the threshold flush of the write of e *)
Definition after_reg (p : dpc) (e : sb) : Prop :=
  match p with
  | QLoad (DDone e') | QTrunc _ (DDone e') | QPersist _ (DDone e') | QFin (DDone e') => e' = e
  | _ => False
  end.

Lemma own_after_reg d p e : own_ok d p -> after_reg p e -> InK e (cat_sbs d).
Proof. destruct p; simpl; try contradiction; destruct k; try contradiction; intros H <-; exact H. Qed.

Lemma own_ok_mono d d' p : (forall x, In x (cat_sbs d) -> In x (cat_sbs d')) -> own_ok d p -> own_ok d' p.
Proof. intros H. destruct p; simpl; auto; destruct k; auto; apply InK_incl; exact H. Qed.

Lemma own_ok_no_cont d p : pc_cont p = None -> own_ok d p.
Proof. destruct p; try discriminate; intros _; exact I. Qed.

(* the mark a flush will truncate and persist with (at p') is the last_wal_seq
   it read (at p) *)
Definition mark_read (v : volatile) (p p' : dpc) : Prop :=
  match p' with
  | QTrunc m k => p = QLoad k /\ m = v_lws v
  | QPersist m k => p = QTrunc m k
  | _ => True
  end.

Lemma mark_read_no_cont v p p' : pc_cont p' = None -> mark_read v p p'.
Proof. destruct p'; try discriminate; intros _; exact I. Qed.

(* last_wal_seq is written by a writer after its append (with the sequence
   number of its entry) and by ensure_wal (with the highest one replayed) *)
Definition lws_change (v : volatile) (p : dpc) (v' : volatile) : Prop :=
  v_lws v' = v_lws v \/ (exists e, p = QSeq e /\ v_lws v' = fst e)
  \/ (exists rest maxs fl0, (p = QScan rest maxs fl0 \/ p = QRFinish maxs fl0) /\ v_lws v' = maxs).

(* what one step of one thread does, as far as the invariant is concerned *)
Record lspec (d : durable) (v : volatile) (p : dpc) (d' : durable) (v' : volatile) (p' : dpc) : Prop := {
  ls_wal : exists b, b <= trunc_bound p /\
           wal_entries d' = (concat (trunc b (d_segs d)) ++ d_active d) ++ appended v p;
  ls_next : v_next v' = v_next v + N.of_nat (length (appended v p));
  ls_mark : d_flushed d' = d_flushed d \/ exists k, p = QPersist (d_flushed d') k;
  ls_cat : forall x, In x (cat_sbs d) -> In x (cat_sbs d');
  (* no volatile batch appears from nowhere: i_live, i_safe need to look at old ones only *)
  ls_origin : forall x, In x (vL v' ++ pc_live p') -> In x (vL v ++ pc_live p) \/ In x (logged v p);
  (* a batch leaves volatile memory only for the catalog: i_acked *)
  ls_keep : forall x, In x (vL v ++ pc_L p) -> In x (vL v' ++ pc_L p') \/ In x (cat_sbs d');
  ls_lws : lws_change v p v';
  ls_own : own_ok d p -> own_ok d' p';
  ls_read : mark_read v p p'
}.

Lemma cat_sbs_add d bs : cat_sbs (add_cat d bs) = cat_sbs d ++ bs.
Proof. unfold cat_sbs, add_cat; simpl. rewrite concat_app. simpl. rewrite app_nil_r. reflexivity. Qed.

(* closes an inclusion between concatenations of concrete lists: splits the
   premise along ++ and ::, then looks the element up on the right (rewriting
   with in_app_iff and tauto does the same at many times the cost) *)
Ltac sets :=
  unfold vL; simpl; clear; intros x Hx;
  repeat ((apply in_app_or in Hx || apply in_inv in Hx); destruct Hx as [Hx|Hx]); subst;
  solve [auto 8 with datatypes|destruct Hx].

(* a step that leaves the WAL and the mark alone and does not append *)
Lemma lspec_vol d v p d' v' p' :
  (forall r, p <> QWal r) -> v_next v' = v_next v -> lws_change v p v' ->
  wal_entries d' = wal_entries d -> d_flushed d' = d_flushed d ->
  (forall x, In x (cat_sbs d) -> In x (cat_sbs d')) ->
  (forall x, In x (vL v' ++ pc_live p') -> In x (vL v ++ pc_live p)) ->
  (forall x, In x (vL v ++ pc_L p) -> In x (vL v' ++ pc_L p') \/ In x (cat_sbs d')) ->
  (own_ok d p -> own_ok d' p') -> mark_read v p p' ->
  lspec d v p d' v' p'.
Proof.
  intros Hnw Hnx Hl Hw Hm Hc Ho Hk Hown Hlate.
  assert (Ea : appended v p = []).
  { destruct p; try reflexivity. exfalso. eapply Hnw; reflexivity. }
  constructor; rewrite ?Ea; auto.
  - exists 0. split; [apply N.le_0_l|]. rewrite trunc_0, app_nil_r. exact Hw.
  - simpl. lia.
Qed.

(* a step that leaves the durable state alone *)
Lemma lspec_mem d v p v' p' :
  (forall r, p <> QWal r) -> v_next v' = v_next v -> lws_change v p v' ->
  (forall x, In x (vL v' ++ pc_live p') -> In x (vL v ++ pc_live p)) ->
  (forall x, In x (vL v ++ pc_L p) -> In x (vL v' ++ pc_L p')) ->
  (own_ok d p -> own_ok d p') -> mark_read v p p' ->
  lspec d v p d v' p'.
Proof. intros Hnw Hnx Hl Ho Hk Hown Hlate. apply lspec_vol; auto. Qed.

(* only the pc moves, with the same batches *)
Lemma lspec_pc d v p p' :
  (forall r, p <> QWal r) -> pc_L p' = pc_L p -> pc_live p' = pc_live p ->
  (own_ok d p -> own_ok d p') -> mark_read v p p' -> lspec d v p d v p'.
Proof.
  intros Hnw HL HP Hown Hlate.
  apply lspec_mem; auto; [left; reflexivity|rewrite HP; auto|rewrite HL; auto].
Qed.

(* only the pc moves, with the same batches, to a pc outside flush_batches *)
Lemma lspec_move d v p p' :
  (forall r, p <> QWal r) -> pc_L p' = pc_L p -> pc_live p' = pc_live p -> pc_cont p' = None ->
  lspec d v p d v p'.
Proof.
  intros Hnw HL HP Hc. apply lspec_pc; auto; [intros _; apply own_ok_no_cont|apply mark_read_no_cont]; exact Hc.
Qed.

(* the pc a thread continues with after its flush produced r: once
   flush_batches has returned, only the continuation's batches remain *)
Definition cont_lands (k : dcont) (p' : dpc) : Prop :=
  pc_cont p' = None /\ (forall x, In x (pc_L p') <-> In x (cont_rest k))
  /\ (forall x, In x (pc_live p') -> In x (cont_live k)).

Definition after_ok (r : dfres) (p' : dpc) : Prop :=
  match r with GPc q => p' = q | GOk k | GErr k => cont_lands k p' end.

(* flush_batches returns: of the batches bs it took nothing is left with the
   thread; they were dropped or registered *)
Lemma lspec_lands d v p d' v' bs k p' :
  pc_cont p = Some k -> pc_L p = bs ++ cont_rest k -> pc_live p = bs ++ cont_live k -> cont_lands k p' ->
  v_next v' = v_next v -> v_lws v' = v_lws v ->
  wal_entries d' = wal_entries d -> d_flushed d' = d_flushed d ->
  (forall x, In x (cat_sbs d) -> In x (cat_sbs d')) ->
  (forall x, In x (vL v') -> In x (vL v ++ bs)) ->
  (forall x, In x (vL v ++ bs) -> In x (vL v') \/ In x (cat_sbs d')) ->
  lspec d v p d' v' p'.
Proof.
  intros Hk EL EP (Hc & HL & HP) Hnx Hl Hw Hm Hcat Hv Hkeep.
  apply lspec_vol; auto.
  - intros r ->. discriminate.
  - left. exact Hl.
  - rewrite EP, app_assoc. exact (incl_app_app Hv HP).
  - intros x Hx. rewrite EL, app_assoc in Hx. apply in_app_or in Hx. destruct Hx as [Hx|Hx].
    + destruct (Hkeep x Hx) as [H|H]; [left; apply in_or_app; left; exact H|right; exact H].
    + left. apply in_or_app. right. apply HL. exact Hx.
  - intros _. apply own_ok_no_cont. exact Hc.
  - apply mark_read_no_cont. exact Hc.
Qed.

(* the flush fails before anything is registered: the batches it took are dropped *)
Lemma lspec_dropped d v bs k p p' :
  pc_cont p = Some k -> pc_L p = bs ++ cont_rest k -> pc_live p = bs ++ cont_live k -> cont_lands k p' ->
  lspec d v p d (add_dropped v bs) p'.
Proof. intros Hk EL EP Ha. apply (lspec_lands d v p d _ bs k p'); auto; sets. Qed.

(* flush_batches returns with none of the batches it took left *)
Lemma lspec_returns d v k p p' :
  pc_cont p = Some k -> pc_L p = cont_rest k -> pc_live p = cont_live k -> cont_lands k p' -> lspec d v p d v p'.
Proof.
  intros Hk EL EP Ha. apply (lspec_lands d v p d v [] k p'); auto; intros x; rewrite app_nil_r; auto.
Qed.

Lemma flush_lspec hw f d v p d' v' r p' :
  dflush_step hw f d v p = Some (d', v', r) -> after_ok r p' -> lspec d v p d' v' p'.
Proof.
  intros H Ha. destruct (dflush_step_cases _ _ _ _ _ _ _ _ H); simpl in Ha; try subst p'.
  - (* FcPut *) apply lspec_pc; [discriminate|reflexivity|reflexivity|auto|exact I].
  - (* FcPutErr *) apply lspec_dropped with (k := k); auto.
  - (* FcReg: the batches reach the catalog *)
    apply lspec_vol; try reflexivity; try discriminate; rewrite ?cat_sbs_add; try sets.
    + (* lws_change *) left. reflexivity.
    + (* own_ok: the own batch is among those registered *)
      destruct k; cbn [own_ok]; auto. intros He. rewrite cat_sbs_add. apply InK_app. right. apply InK_intro. exact He.
  - (* FcRegErr *) apply lspec_dropped with (k := k); auto.
  - (* FcRegLate: registered, although the caller sees an error *)
    apply lspec_lands with (bs := bs) (k := k); auto; rewrite ?cat_sbs_add; sets.
  - (* FcLoad: the mark is read *)
    apply lspec_pc; [discriminate|reflexivity|reflexivity|auto|split; reflexivity].
  - (* FcTrunc *)
    destruct hw; [|apply lspec_pc; [discriminate|reflexivity|reflexivity|auto|reflexivity]].
    constructor; simpl; try (left; reflexivity); auto; try sets.
    + (* ls_wal *) exists m. split; [apply N.le_refl|]. rewrite app_nil_r. reflexivity.
    + (* ls_next *) lia.
  - (* FcNoTrunc *) apply lspec_returns with (k := k); auto.
  - (* FcPersist *)
    constructor; simpl; try (left; reflexivity); auto; try sets.
    + (* ls_wal *) exists 0. split; [apply N.le_0_l|]. rewrite trunc_0, app_nil_r. reflexivity.
    + (* ls_next *) lia.
    + (* ls_mark *) right. exists k. reflexivity.
  - (* FcFin *) apply lspec_returns with (k := k); auto.
Qed.

Lemma dbegin_lands bs k p' : after_ok (dbegin_flush bs k) p' ->
  (forall x, In x (pc_L p') <-> In x (bs ++ cont_rest k)) /\ (forall x, In x (pc_live p') -> In x (bs ++ cont_live k))
  /\ (forall d, own_ok d (QPut bs k) -> own_ok d p') /\ (forall v p, mark_read v p p').
Proof.
  destruct bs as [|b r]; simpl.
  - intros (Hc & HL & HP). split; [exact HL|]. split; [exact HP|].
    split; intros; [apply own_ok_no_cont|apply mark_read_no_cont]; exact Hc.
  - intros ->. simpl. repeat split; auto.
Qed.

(* a thread takes the whole buffer and begins to flush it *)
Lemma take_lspec d v p k v' p' :
  (forall r, p <> QWal r) -> pc_L p = cont_rest k -> (forall x, In x (cont_live k) -> In x (pc_live p)) ->
  (forall e, k <> DDone e) -> vL v' = v_dropped v -> v_next v' = v_next v -> lws_change v p v' ->
  after_ok (dbegin_flush (db_items (v_buf v)) k) p' ->
  lspec d v p d v' p'.
Proof.
  intros Hnw HL HP Hk Ev Hnx Hl Ha. destruct (dbegin_lands _ _ _ Ha) as (HL' & HP' & Hown & Hlate).
  apply lspec_mem; auto.
  - intros x. specialize (HP' x). specialize (HP x). rewrite Ev. unfold vL. rewrite !in_app_iff in *. tauto.
  - intros x. rewrite Ev, HL. unfold vL. rewrite !in_app_iff, HL', in_app_iff. tauto.
  - intros _. apply Hown. destruct k; try exact I. exfalso. eapply Hk; reflexivity.
Qed.

Lemma wal_entries_append c d v r d' v' e :
  wal_append c d v r = (d', v', e) ->
  wal_entries d' = wal_entries d ++ [mkWe (v_next v) (rq_b r) (rq_len r) (rq_rsize r)]
  /\ d_flushed d' = d_flushed d /\ d_cat d' = d_cat d /\ v_next v' = v_next v + 1
  /\ v_buf v' = v_buf v /\ v_dropped v' = v_dropped v /\ v_lws v' = v_lws v /\ e = (v_next v, rq_b r).
Proof.
  unfold wal_append. intros H. inversion H; subst; clear H. unfold wal_entries; simpl.
  repeat split.
  destruct ((0 <? dc_max_seg c) && (dc_max_seg c <? v_size v + entry_size (mkWe (v_next v) (rq_b r) (rq_len r) (rq_rsize r)))).
  - rewrite concat_app. simpl. rewrite app_nil_r, <- app_assoc. reflexivity.
  - rewrite <- app_assoc. reflexivity.
Qed.

Definition w_acked (w : dwthread) : list sb :=
  flat_map (fun x : sb * wres => match snd x with ROk => [fst x] | _ => [] end) (dw_res w).

(* a write is acknowledged only when its batch is empty, has just been
   buffered, or was registered by the writer's own threshold flush *)
Definition acks_ok (w w' : dwthread) (v' : volatile) : Prop :=
  forall e, In e (w_acked w') ->
  In e (w_acked w) \/ b_rows (snd e) = [] \/ In e (db_items (v_buf v')) \/ after_reg (dw_pc w) e.

Lemma acks_same w w' v' : dw_res w' = dw_res w -> acks_ok w w' v'.
Proof. unfold acks_ok, w_acked. intros -> e He. left. exact He. Qed.

Lemma acks_snoc w w' v' e r : dw_res w' = dw_res w ++ [(e, r)] ->
  (r = ROk -> b_rows (snd e) = [] \/ In e (db_items (v_buf v')) \/ after_reg (dw_pc w) e) -> acks_ok w w' v'.
Proof.
  unfold acks_ok, w_acked. intros -> Hr x Hx. rewrite flat_map_app, in_app_iff in Hx.
  destruct Hx as [Hx|Hx]; [left; exact Hx|right].
  destruct r; simpl in Hx; try contradiction. destruct Hx as [<-|[]]. apply Hr. reflexivity.
Qed.

Lemma dw_after_lands r w : res_kind OfWriter r ->
  after_ok r (dw_pc (dw_after r w)) /\ kind OfWriter (dw_pc (dw_after r w)).
Proof.
  destruct r as [q|k|k]; simpl; intros Hk.
  - split; [reflexivity|exact Hk].
  - (* Ok: the writer retries its append (DRetry) or its write returns (DDone) *)
    destruct k; try discriminate; (split; [repeat split; simpl; tauto|unfold kind; simpl; auto]).
  - (* Err: the write returns *)
    destruct k; try discriminate; (split; [repeat split; simpl; tauto|exact I]).
Qed.

Lemma flush_ok_after_reg hw f d v p d' v' e :
  dflush_step hw f d v p = Some (d', v', GOk (DDone e)) -> after_reg p e.
Proof.
  intros H. apply dflush_step_cases in H. inversion H; reflexivity.
Qed.

Lemma dw_after_acks hw f d v w d' v' r :
  dflush_step hw f d v (dw_pc w) = Some (d', v', r) -> acks_ok w (dw_after r w) v'.
Proof.
  intros H. destruct r as [q|[]|[]]; try (apply acks_same; reflexivity);
    (eapply acks_snoc; [reflexivity|]).
  - (* GOk (DDone e), the one result answered Ok: the flush is past register_chunk *)
    intros _. right. right. exact (flush_ok_after_reg _ _ _ _ _ _ _ _ H).
  - (* GErr (DRetry e): answered RErr *) discriminate.
  - (* GErr (DDone e): answered RErr *) discriminate.
Qed.

Lemma dwstep_flush c f d v w d' v' r :
  dflush_step true f d v (dw_pc w) = Some (d', v', r) -> dwstep c f d v w = (d', v', dw_after r w).
Proof. unfold dwstep. destruct (dw_pc w); try discriminate; intros H; cbv beta iota; rewrite H; reflexivity. Qed.

(* Ingester::write from the buffer lock on: the body of dwstep's case
   QLock e | QRelock e *)
Definition dw_buffer (c : dcfg) (d : durable) (v : volatile) (w : dwthread) (e : sb) : durable * volatile * dwthread :=
  let bf := v_buf v in
  if negb (db_compatible bf e) then
    (d, set_vbuf v db_empty, dw_after (dbegin_flush (db_items bf) (DRetry e)) w)
  else if cf_max_bytes (dc_c c) <? db_bytes bf + b_size (snd e) then
    (d, v, dw_finish w e RFull)
  else
    let bf1 := db_append bf e in
    if db_should_flush (dc_c c) bf1 then
      (d, set_vbuf v db_empty, dw_after (dbegin_flush (db_items bf1) (DDone e)) w)
    else
      (d, set_vbuf v bf1, dw_finish w e ROk).

Lemma dbegin_snoc l e k : dbegin_flush (l ++ [e]) k = GPc (QPut (l ++ [e]) k).
Proof. destruct l; reflexivity. Qed.

Lemma dw_buffer_spec c d v w e d' v' w' :
  dw_buffer c d v w e = (d', v', w') -> pc_L (dw_pc w) = [] -> pc_live (dw_pc w) = [e] ->
  lspec d v (dw_pc w) d' v' (dw_pc w') /\ kind OfWriter (dw_pc w') /\ acks_ok w w' v'.
Proof.
  unfold dw_buffer. intros H HL HP.
  assert (Hnw : forall r, dw_pc w <> QWal r) by (intros r E; rewrite E in HP; discriminate).
  destruct (negb (db_compatible (v_buf v) e)).
  - (* another schema: flush what is buffered, then try again *)
    inversion H; subst; clear H.
    destruct (dw_after_lands (dbegin_flush (db_items (v_buf v)) (DRetry e)) w) as [Ha Hk].
    { destruct (db_items (v_buf v)); reflexivity. }
    split; [|split; [exact Hk|apply acks_same; destruct (db_items (v_buf v)); reflexivity]].
    apply take_lspec with (k := DRetry e); auto; [rewrite HP; auto|discriminate|left; reflexivity].
  - destruct (cf_max_bytes (dc_c c) <? db_bytes (v_buf v) + b_size (snd e)).
    + (* BufferFull *)
      inversion H; subst; clear H. split; [|split; [exact I|eapply acks_snoc; [reflexivity|discriminate]]].
      (* here and in the two cases below: the counters and last_wal_seq stay
         (auto, left), own_ok and mark_read hold at the new pc by computation
         (the own batch is the last taken), the two inclusions are between
         concrete lists *)
      apply lspec_mem; simpl; auto with datatypes; try (left; reflexivity); rewrite ?HL, ?HP; sets.
    + destruct (db_should_flush (dc_c c) (db_append (v_buf v) e)).
      * (* the threshold path: this writer flushes the buffer with its own batch *)
        cbn [db_items db_append] in H. rewrite dbegin_snoc in H. inversion H; subst; clear H.
        split; [|split; [reflexivity|apply acks_same; reflexivity]].
        apply lspec_mem; simpl; auto with datatypes; try (left; reflexivity); rewrite ?HL, ?HP; sets.
      * (* buffered, Ok *)
        inversion H; subst; clear H. split; [|split; [exact I|]].
        -- apply lspec_mem; simpl; auto with datatypes; try (left; reflexivity); rewrite ?HL, ?HP; sets.
        -- eapply acks_snoc; [reflexivity|]. intros _. right. left. apply in_or_app. right. left. reflexivity.
Qed.

Lemma dwstep_spec c f d v w d' v' w' :
  dwstep c f d v w = (d', v', w') -> kind OfWriter (dw_pc w) ->
  lspec d v (dw_pc w) d' v' (dw_pc w') /\ kind OfWriter (dw_pc w') /\ acks_ok w w' v'.
Proof.
  intros H Hk. destruct (dflush_step true f d v (dw_pc w)) as [[[d1 v1] r]|] eqn:Ef.
  { rewrite (dwstep_flush _ _ _ _ _ _ _ _ Ef) in H. inversion H; subst; clear H.
    destruct (dw_after_lands r w (flush_kind _ _ _ _ _ _ _ _ _ Ef Hk)) as [Ha Hk'].
    split; [eapply flush_lspec; eauto|split; [exact Hk'|eapply dw_after_acks; eauto]]. }
  apply flush_none in Ef. unfold dwstep in H.
  destruct (dw_pc w) eqn:Hpc; try discriminate; clear Ef.
  { (* QIdle: the next request, if any *)
    assert (Hi : forall q, pc_L q = [] -> pc_live q = [] -> pc_cont q = None -> lspec d v QIdle d v q).
    { intros q. apply (lspec_move d v QIdle q). discriminate. }
    destruct (dw_todo w) as [|r rest].
    + inversion H; subst. rewrite Hpc. split; [apply Hi; reflexivity|split; [exact I|apply acks_same; reflexivity]].
    + destruct (b_rows (rq_b r)) eqn:Hr; inversion H; subst; (split; [apply Hi; reflexivity|]).
      * (* zero-row batch: acknowledged, nothing stored *)
        split; [exact I|]. eapply acks_snoc; [reflexivity|]. intros _. left. exact Hr.
      * split; [reflexivity|apply acks_same; reflexivity]. }
  { (* QWal: the append *)
    destruct (wal_append c d v r) as [[d1 v1] e] eqn:Ea. inversion H; subst; clear H.
    destruct (wal_entries_append _ _ _ _ _ _ _ Ea) as (Ewal & Emark & Ecat & Enext & Ebuf & Edrop & Elws & Ee).
    split; [|split; [unfold kind; simpl; auto|apply acks_same; reflexivity]].
    constructor; simpl.
    + (* ls_wal *) exists 0. split; [apply N.le_0_l|]. rewrite trunc_0. exact Ewal.
    + (* ls_next *) exact Enext.
    + (* ls_mark *) left. exact Emark.
    + (* ls_cat *) unfold cat_sbs. rewrite Ecat. auto.
    + (* ls_origin *) unfold vL. rewrite Ebuf, Edrop, Ee. sets.
    + (* ls_keep *) unfold vL. rewrite Ebuf, Edrop. sets.
    + (* ls_lws *) left. exact Elws.
    + (* ls_own *) auto.
    + (* ls_read *) exact I. }
  { (* QSeq: last_wal_seq := seq *)
    inversion H; subst; clear H. split; [|split; [unfold kind; simpl; auto|apply acks_same; reflexivity]].
    apply lspec_mem; auto; try discriminate; try exact I; try sets. right. left. exists e. auto. }
  (* QLock, QRelock *)
  all: rewrite <- Hpc in *; apply (dw_buffer_spec c d v w e); auto; rewrite Hpc; reflexivity.
Qed.

Lemma dt_after_lands r : res_kind OfTimer r -> after_ok r (dt_after r) /\ kind OfTimer (dt_after r).
Proof.
  destruct r as [q|k|k]; simpl; intros Hk.
  - split; [reflexivity|exact Hk].
  - (* Ok: the timer task is idle again (DTimer) or has stopped (DShutK) *)
    destruct k; try discriminate; (split; [repeat split; simpl; tauto|unfold kind; simpl; auto]).
  - (* Err: the same *)
    destruct k; try discriminate; (split; [repeat split; simpl; tauto|unfold kind; simpl; auto]).
Qed.

Lemma dtstep_flush shut f d v p d' v' r :
  dflush_step true f d v p = Some (d', v', r) -> dtstep shut f d v p = (d', v', dt_after r).
Proof. unfold dtstep. destruct p; try discriminate; intros H; cbv beta iota; rewrite H; reflexivity. Qed.

Lemma dtstep_spec shut f d v p d' v' p' :
  dtstep shut f d v p = (d', v', p') -> kind OfTimer p -> lspec d v p d' v' p' /\ kind OfTimer p'.
Proof.
  intros H Hk. destruct (dflush_step true f d v p) as [[[d1 v1] r]|] eqn:Ef.
  { rewrite (dtstep_flush _ _ _ _ _ _ _ _ Ef) in H. inversion H; subst; clear H.
    destruct (dt_after_lands r (flush_kind _ _ _ _ _ _ _ _ _ Ef Hk)) as [Ha Hk'].
    split; [eapply flush_lspec; eauto|exact Hk']. }
  apply flush_none in Ef.
  assert (Ht : forall k, pc_L p = [] -> (forall r, p <> QWal r) -> cont_role k = OfTimer ->
               lspec d v p d (set_vbuf v db_empty) (dt_after (dbegin_flush (db_items (v_buf v)) k))
               /\ kind OfTimer (dt_after (dbegin_flush (db_items (v_buf v)) k))).
  { intros k HL Hnw Hr.
    destruct (dt_after_lands (dbegin_flush (db_items (v_buf v)) k)) as [Ha Hk'].
    { destruct (db_items (v_buf v)); exact Hr. }
    split; [|exact Hk']. apply take_lspec with (k := k); auto; try (left; reflexivity);
      destruct k; try discriminate; auto; simpl; tauto. }
  destruct p; try discriminate; clear Ef; simpl in H.
  - (* QIdle *)
    destruct shut; inversion H; subst; (split; [apply lspec_move; try reflexivity; discriminate|unfold kind; simpl; auto]).
  - (* QCheck *)
    destruct (negb (db_is_empty (v_buf v))); inversion H; subst;
      (split; [apply lspec_move; try reflexivity; discriminate|unfold kind; simpl; auto]).
  - (* QTake *) inversion H; subst. apply Ht; try reflexivity; discriminate.
  - (* QShutTake *) inversion H; subst. apply Ht; try reflexivity; discriminate.
  - (* QStopped *) inversion H; subst. split; [apply lspec_move; try reflexivity; discriminate|unfold kind; simpl; auto].
Qed.

Lemma dr_after_lands r : res_kind OfRecovery r ->
  match dr_after r with
  | RPc p' => after_ok r p' /\ kind OfRecovery p'
  | RUp => False
  | RFail => exists k, r = GErr k
  end.
Proof.
  destruct r as [q|k|k]; simpl; intros Hk; [split; [reflexivity|exact Hk]| |eauto].
  destruct k; try discriminate. split; [|reflexivity]. repeat split; simpl; tauto.
Qed.

Lemma drstep_flush f d v p d' v' r :
  dflush_step false f d v p = Some (d', v', r) -> drstep f d v p = (d', v', dr_after r).
Proof. unfold drstep. destruct p; try discriminate; intros H; cbv beta iota; rewrite H; reflexivity. Qed.

Lemma flush_err_frame hw f d v p d' v' k :
  dflush_step hw f d v p = Some (d', v', GErr k) ->
  wal_entries d' = wal_entries d /\ d_flushed d' = d_flushed d /\ (forall x, In x (cat_sbs d) -> In x (cat_sbs d')).
Proof.
  intros H. apply dflush_step_cases in H. inversion H; subst; repeat split; auto.
  (* FcRegLate *) rewrite cat_sbs_add. intros x Hx. apply in_or_app; left; exact Hx.
Qed.

(* while ensure_wal goes on (RPc) and when it returns Ok (RUp: the process is
   up, recovery's pc back at QIdle) its step meets the local specification; a
   failed ensure_wal (RFail) leaves the WAL and the mark as they were *)
Lemma drstep_spec f d v p d' v' rr :
  drstep f d v p = (d', v', rr) -> kind OfRecovery p ->
  match rr with
  | RPc p' => lspec d v p d' v' p' /\ kind OfRecovery p'
  | RUp => lspec d v p d' v' QIdle
  | RFail => wal_entries d' = wal_entries d /\ d_flushed d' = d_flushed d
             /\ (forall x, In x (cat_sbs d) -> In x (cat_sbs d'))
  end.
Proof.
  intros H Hk. destruct (dflush_step false f d v p) as [[[d1 v1] r]|] eqn:Ef.
  { rewrite (drstep_flush _ _ _ _ _ _ _ Ef) in H. inversion H; subst; clear H.
    pose proof (dr_after_lands r (flush_kind _ _ _ _ _ _ _ _ _ Ef Hk)) as Ha.
    destruct (dr_after r) as [p'| |].
    - split; [eapply flush_lspec; [exact Ef|apply Ha]|apply Ha].
    - contradiction.
    - destruct Ha as [k ->]. eapply flush_err_frame; eauto. }
  apply flush_none in Ef. destruct p; try discriminate; clear Ef; simpl in H.
  - (* QIdle *)
    inversion H; subst. split; [|exact I]. apply lspec_move; try reflexivity; discriminate.
  - (* QScan: the replay loop *)
    destruct rest as [|e r0].
    + inversion H; subst; clear H. split; [|reflexivity]. apply lspec_move; try reflexivity; discriminate.
    + destruct (db_compatible (v_buf v) e).
      * inversion H; subst; clear H. split; [|reflexivity].
        apply lspec_mem; simpl; auto; try discriminate; try sets. left. reflexivity.
      * (* schema change: flush the recovery buffer, the loop resumes at e *)
        inversion H; subst; clear H.
        pose proof (dr_after_lands (dbegin_flush (db_items (v_buf v)) (DRecover (e :: r0) maxs fl0))) as Ha.
        destruct (dr_after _) as [p'| |];
          [destruct Ha as [Ha Hk']|destruct Ha|destruct Ha as [k Ha]];
          try (destruct (db_items (v_buf v)); try reflexivity; discriminate).
        split; [|exact Hk'].
        apply take_lspec with (k := DRecover (e :: r0) maxs fl0); auto; try discriminate.
        right. right. exists (e :: r0), maxs, fl0. auto.
  - (* QRFinish *)
    inversion H; subst; clear H.
    assert (Hl : lws_change v (QRFinish maxs fl0) (if fl0 <? maxs then set_lws v maxs else v)).
    { destruct (fl0 <? maxs); [right; right; exists [], maxs, fl0; auto|left; reflexivity]. }
    assert (Hv : vL (if fl0 <? maxs then set_lws v maxs else v) = vL v /\
                 v_next (if fl0 <? maxs then set_lws v maxs else v) = v_next v).
    { destruct (fl0 <? maxs); auto. }
    destruct Hv as [Ev En].
    destruct (0 <? fl0); [|apply lspec_mem; auto; try discriminate; try exact I; rewrite Ev; sets].
    constructor; simpl; auto; try exact I; rewrite ?Ev; try sets.
    + (* ls_wal *) exists (fl0 + 1). split; [apply N.le_refl|]. rewrite app_nil_r. reflexivity.
    + (* ls_next *) lia.
Qed.

(* ensure_wal carries fl0, the mark it started from, and maxs, the highest
   sequence number replayed so far.  The mark on disk stays at or above fl0:
   a flush run by the replay loop persists what it read from last_wal_seq
   (v_lws before QLoad, m after), and that is at least fl0. *)
Definition rec_ok (d : durable) (v : volatile) (p : dpc) : Prop :=
  match p with
  | QScan _ maxs fl0 | QRFinish maxs fl0 => fl0 <= maxs /\ fl0 <= d_flushed d /\ maxs < v_next v
  | QPut _ (DRecover _ maxs fl0) | QReg _ (DRecover _ maxs fl0) | QLoad (DRecover _ maxs fl0) =>
      fl0 <= v_lws v /\ fl0 <= maxs /\ fl0 <= d_flushed d /\ maxs < v_next v
  | QTrunc m (DRecover _ maxs fl0) | QPersist m (DRecover _ maxs fl0) =>
      fl0 <= m /\ fl0 <= maxs /\ fl0 <= d_flushed d /\ maxs < v_next v
  | QFin (DRecover _ maxs fl0) => fl0 <= maxs /\ fl0 <= d_flushed d /\ maxs < v_next v
  | _ => True
  end.

Lemma drstep_rec_ok f d v p d' v' p' :
  drstep f d v p = (d', v', RPc p') -> kind OfRecovery p -> rec_ok d v p ->
  (forall x, In x (pc_L p) -> fst x < v_next v) -> rec_ok d' v' p'.
Proof.
  intros H Hk Hr Hb. destruct (dflush_step false f d v p) as [[[d1 v1] r]|] eqn:Ef.
  { (* inside flush_batches the continuation is ensure_wal's; the bounds are
       handed on, and the mark that is read, truncated and persisted with is
       the same *)
    rewrite (drstep_flush _ _ _ _ _ _ _ Ef) in H.
    destruct (dflush_step_cases _ _ _ _ _ _ _ _ Ef); unfold kind in Hk; simpl in Hk;
      destruct k; try discriminate; injection H as <- <- <-; simpl in *; tauto. }
  apply flush_none in Ef. destruct p; try discriminate; clear Ef; simpl in H.
  (* QRFinish does not return RPc *)
  - (* QIdle *) inversion H; subst. exact Hr.
  - (* QScan *)
    destruct rest as [|e r0]; [inversion H; subst; simpl in *; lia|].
    destruct (db_compatible (v_buf v) e).
    + inversion H; subst. simpl in *. pose proof (Hb e (or_introl eq_refl)). lia.
    + destruct (db_items (v_buf v)); simpl in H; inversion H; subst; simpl in *; repeat split; try tauto; lia.
Qed.

(* the mark a flush at p carries is below next_seq and every element of live *)
Definition mark_safe (s : dstate) (p : dpc) : Prop :=
  match p with
  | QTrunc m _ | QPersist m _ =>
      m < v_next (ds_v s) /\ forall x, In x (live s) -> m < fst x
  | _ => True
  end.

Definition acked_ok (s : dstate) : Prop :=
  forall e, In e (acked_sbs s) -> b_rows (snd e) <> [] ->
  InK e (cat_sbs (ds_d s)) \/
  match ds_mode s with
  | MDown => InK e (wal_sbs (ds_d s)) /\ d_flushed (ds_d s) < fst e
  | _ => InK e (Lset s)
  end.

Definition kinds_ok (s : dstate) : Prop :=
  Forall (kind OfWriter) (map dw_pc (ds_ws s)) /\ kind OfTimer (ds_tm s) /\ kind OfRecovery (ds_rec s).

Definition mode_ok (s : dstate) : Prop :=
  match ds_mode s with
  | MDown => ds_v s = v_dead /\ Forall (fun p => p = QIdle) (pcs s)
  | MRec => Forall (fun w => dw_pc w = QIdle) (ds_ws s) /\ ds_tm s = QIdle
  | MUp => ds_rec s = QIdle
  end.

Record inv (s : dstate) : Prop := {
  i_sorted : wal_sorted (ds_d s);
  i_next : ds_mode s <> MDown ->
           (forall x, In x (wal_entries (ds_d s)) -> we_seq x < v_next (ds_v s))
           /\ v_lws (ds_v s) < v_next (ds_v s) /\ d_flushed (ds_d s) < v_next (ds_v s);
  i_live : forall x, In x (live s) -> InK x (wal_sbs (ds_d s)) /\ d_flushed (ds_d s) < fst x;
  i_acked : acked_ok s;
  i_safe : Forall (mark_safe s) (pcs s);
  i_own : Forall (own_ok (ds_d s)) (pcs s);
  i_kinds : kinds_ok s;
  i_rec : rec_ok (ds_d s) (ds_v s) (ds_rec s);
  i_mode : mode_ok s
}.

Lemma wal_key_entry d x : InK x (wal_sbs d) -> exists y, In y (wal_entries d) /\ we_seq y = fst x /\ skey (we_sb y) = skey x.
Proof.
  intros H. destruct (InK_elim _ _ H) as (z & Hz & E). unfold wal_sbs in Hz. apply in_map_iff in Hz.
  destruct Hz as (y & Ey & Hy). exists y. split; [exact Hy|]. subst z. split; [|exact E].
  apply skey_fst in E. exact E.
Qed.

Lemma entry_wal_key d y : In y (wal_entries d) -> InK (we_sb y) (wal_sbs d).
Proof. intros H. apply InK_intro. unfold wal_sbs. apply in_map. exact H. Qed.

(* a volatile batch is replayed by the next ensure_wal *)
Lemma live_key s e : inv s -> InK e (Lset s) -> InK e (wal_sbs (ds_d s)) /\ d_flushed (ds_d s) < fst e.
Proof.
  intros Iv He. destruct (InK_elim _ _ He) as (x & Hx & Ek).
  destruct (i_live _ Iv x (Lset_live _ _ Hx)) as [Hw Hf]. rewrite <- (skey_fst _ _ Ek).
  split; [eapply InK_key_eq; [exact Ek|exact Hw]|exact Hf].
Qed.

(* the WAL after truncating with bound b and appending A *)
Section WalStep.
  Variables (b : N) (d d' : durable) (A : list wentry).
  Hypothesis Ew : wal_entries d' = (concat (trunc b (d_segs d)) ++ d_active d) ++ A.

  Lemma wal_step_old y : In y (wal_entries d') -> In y (wal_entries d) \/ In y A.
  Proof.
    rewrite Ew. unfold wal_entries. rewrite !in_app_iff. intros [[H|H]|H]; auto.
    left. left. eapply trunc_incl; exact H.
  Qed.

  Lemma wal_step_keeps y : wal_sorted d -> In y (wal_entries d) -> b <= we_seq y -> In y (wal_entries d').
  Proof.
    rewrite Ew. unfold wal_sorted, wal_entries, wal_seqs. rewrite map_app, !in_app_iff. intros Hs [H|H] Hb; auto.
    left. left. apply ssorted_app in Hs. apply trunc_keeps; [apply Hs|exact H|exact Hb].
  Qed.

  Lemma wal_step_sorted : wal_sorted d -> ssorted (wal_seqs A) ->
    (forall y a, In y (wal_entries d) -> In a A -> we_seq y < we_seq a) -> wal_sorted d'.
  Proof.
    unfold wal_sorted. intros Hs HA Hlt. rewrite Ew. unfold wal_seqs. rewrite map_app. apply ssorted_app.
    split; [apply trunc_sorted; exact Hs|]. split; [exact HA|].
    intros x a Hx Ha. apply in_map_iff in Hx. destruct Hx as (y & <- & Hy). apply in_map_iff in Ha. destruct Ha as (z & <- & Hz).
    apply Hlt; [|exact Hz]. unfold wal_entries. rewrite in_app_iff in *. destruct Hy as [Hy|Hy]; auto.
    left. eapply trunc_incl; exact Hy.
  Qed.
End WalStep.

(* One thread, standing between l1 and l2 in pcs, performs a step that
   satisfies the local specification.  What is particular to the thread (the
   acknowledgements it adds, the kinds, recovery's bounds, the mode) is
   supplied by the caller of thread_step. *)
Section ThreadStep.
  Variables (s s' : dstate) (l1 l2 : list dpc) (p p' : dpc).
  Hypothesis Iv : inv s.
  Hypothesis Hup : ds_mode s <> MDown.
  Hypothesis Hpcs : pcs s = l1 ++ p :: l2.
  Hypothesis Hpcs' : pcs s' = l1 ++ p' :: l2.
  Hypothesis LS : lspec (ds_d s) (ds_v s) p (ds_d s') (ds_v s') p'.
  Hypothesis Hflag : set_flag s p = 0.
  Hypothesis Hrb : forall rest maxs fl0, p = QScan rest maxs fl0 \/ p = QRFinish maxs fl0 ->
                   maxs < v_next (ds_v s) /\ fl0 <= d_flushed (ds_d s).

  Lemma step_safe_p : mark_safe s p.
  Proof. apply (Forall_elt _ l1 l2). rewrite <- Hpcs. apply (i_safe _ Iv). Qed.

  Lemma step_origin : forall x, In x (live s') -> In x (live s) \/ In x (logged (ds_v s) p).
  Proof. unfold live. rewrite Hpcs, Hpcs'. apply flat_swap. apply (ls_origin _ _ _ _ _ _ LS). Qed.

  Lemma step_next : v_next (ds_v s) <= v_next (ds_v s').
  Proof. rewrite (ls_next _ _ _ _ _ _ LS). lia. Qed.

  (* a new mark is below next_seq and every volatile batch *)
  Lemma step_mark : d_flushed (ds_d s') = d_flushed (ds_d s) \/
    (d_flushed (ds_d s') < v_next (ds_v s) /\ forall x, In x (live s) -> d_flushed (ds_d s') < fst x).
  Proof.
    destruct (ls_mark _ _ _ _ _ _ LS) as [E|[k E]]; [left; exact E|right].
    pose proof step_safe_p as Hc. rewrite E in Hc. exact Hc.
  Qed.

  (* the step truncates below every volatile batch, so each keeps its WAL entry *)
  Lemma step_old x : In x (live s) -> InK x (wal_sbs (ds_d s')) /\ d_flushed (ds_d s') < fst x.
  Proof.
    intros Hx. destruct (i_live _ Iv x Hx) as [Hw Hf]. split.
    - destruct (ls_wal _ _ _ _ _ _ LS) as (b & Hb & Ew).
      destruct (wal_key_entry _ _ Hw) as (y & Hy & Ey & Ek). eapply InK_key_eq; [exact Ek|]. apply entry_wal_key.
      eapply wal_step_keeps; [exact Ew|apply (i_sorted _ Iv)|exact Hy|]. rewrite Ey.
      apply (N.le_trans _ _ _ Hb).
      destruct (trunc_bound_cases p) as [->|[(m & k & Ep & ->)|(maxs & fl0 & Ep & ->)]].
      + apply N.le_0_l.
      + pose proof step_safe_p as Hc. rewrite Ep in Hc. apply N.lt_le_incl. apply Hc. exact Hx.
      + destruct (Hrb [] maxs fl0 (or_intror Ep)) as [_ Hfl]. lia.
    - destruct step_mark as [->|[_ Hc]]; [exact Hf|apply Hc; exact Hx].
  Qed.

  (* a bound below next_seq and every volatile batch stays so *)
  Lemma step_carry m : m < v_next (ds_v s) -> (forall x, In x (live s) -> m < fst x) ->
    m < v_next (ds_v s') /\ (forall x, In x (live s') -> m < fst x).
  Proof.
    intros Hm1 Hm2. split; [pose proof step_next; lia|].
    intros x Hx. destruct (step_origin x Hx) as [Ho|Hf]; [apply Hm2; exact Ho|].
    rewrite (proj1 (logged_appended _ _ _ Hf)). exact Hm1.
  Qed.

  Lemma step_wal : wal_sorted (ds_d s') /\ forall y, In y (wal_entries (ds_d s')) -> we_seq y < v_next (ds_v s').
  Proof.
    destruct (i_next _ Iv Hup) as (Hnext & _). destruct (ls_wal _ _ _ _ _ _ LS) as (b & _ & Ew). split.
    - eapply wal_step_sorted; [exact Ew|apply (i_sorted _ Iv)|apply appended_sorted|].
      intros y a Hy Ha. rewrite (proj1 (appended_seq _ _ _ Ha)). apply Hnext. exact Hy.
    - intros y Hy. destruct (wal_step_old _ _ _ _ Ew y Hy) as [Ho|Ha].
      + specialize (Hnext y Ho). pose proof step_next. lia.
      + destruct (appended_seq _ _ _ Ha) as [E El]. rewrite (ls_next _ _ _ _ _ _ LS), El, E. simpl. lia.
  Qed.

  Lemma step_lws : v_lws (ds_v s') < v_next (ds_v s').
  Proof.
    destruct (i_next _ Iv Hup) as (Hnext & Hlws & _). pose proof step_next.
    destruct (ls_lws _ _ _ _ _ _ LS) as [E|[(e & Ep & E)|(rest & maxs & fl0 & Ep & E)]]; rewrite E.
    - lia.
    - (* the sequence number a writer stores is that of its WAL entry *)
      assert (Hin : In e (live s)).
      { unfold live. rewrite Hpcs, Ep, flat_map_app, !in_app_iff. right. right. left. reflexivity. }
      destruct (i_live _ Iv e Hin) as [Hw _]. destruct (wal_key_entry _ _ Hw) as (y & Hy & Ey & _).
      specialize (Hnext y Hy). lia.
    - destruct (Hrb rest maxs fl0 Ep) as [Hm _]. lia.
  Qed.

  Lemma step_live x : In x (live s') -> InK x (wal_sbs (ds_d s')) /\ d_flushed (ds_d s') < fst x.
  Proof.
    intros Hx. destruct (step_origin x Hx) as [Ho|Hf]; [apply step_old; exact Ho|].
    destruct (logged_appended _ _ _ Hf) as (Ex & Hnp & y & Hy & Ek). split.
    - destruct (ls_wal _ _ _ _ _ _ LS) as (b & _ & Ew).
      eapply InK_key_eq; [exact Ek|]. apply entry_wal_key. rewrite Ew. apply in_or_app. right. exact Hy.
    - destruct (ls_mark _ _ _ _ _ _ LS) as [->|[k E]]; [|exfalso; eapply Hnp; exact E].
      rewrite Ex. apply (i_next _ Iv Hup).
  Qed.

  (* acknowledged batches stay in Lset or reach the catalog *)
  Lemma step_acked : ds_mode s' <> MDown ->
    (forall e, In e (acked_sbs s') -> In e (acked_sbs s) \/
               b_rows (snd e) = [] \/ In e (db_items (v_buf (ds_v s'))) \/ after_reg p e) ->
    acked_ok s'.
  Proof.
    intros Hup' Hack.
    assert (Hc : forall e, InK e (cat_sbs (ds_d s)) -> InK e (cat_sbs (ds_d s'))).
    { intros e. apply InK_incl. apply (ls_cat _ _ _ _ _ _ LS). }
    assert (HL : forall e, InK e (Lset s) -> InK e (cat_sbs (ds_d s')) \/ InK e (Lset s')).
    { intros e He. apply or_comm, InK_app. revert He. apply InK_incl. intros x Hx. apply in_or_app. revert x Hx.
      unfold Lset. rewrite Hpcs, Hpcs'. apply flat_swap. apply (ls_keep _ _ _ _ _ _ LS). }
    assert (S4 : forall e, In e (acked_sbs s') -> b_rows (snd e) <> [] -> InK e (cat_sbs (ds_d s')) \/ InK e (Lset s')).
    { intros e He Hr. destruct (Hack e He) as [Ho|[Hz|[Hbf|Ha]]].
      - destruct (i_acked _ Iv e Ho Hr) as [Hq|Hq]; [left; apply Hc; exact Hq|].
        apply HL. destruct (ds_mode s); [contradiction|exact Hq|exact Hq]. (* MDown | MRec | MUp *)
      - contradiction.
      - right. apply InK_intro. unfold Lset, vL. rewrite !in_app_iff. auto.
      - left. apply Hc. apply (own_after_reg _ p); [|exact Ha].
        apply (Forall_elt _ l1 l2). rewrite <- Hpcs. apply (i_own _ Iv). }
    intros e He Hr. destruct (S4 e He Hr) as [H|H]; [left; exact H|right].
    destruct (ds_mode s'); [contradiction|exact H|exact H]. (* MDown | MRec | MUp *)
  Qed.

  Lemma step_safe : Forall (mark_safe s') (pcs s').
  Proof.
    pose proof (i_safe _ Iv) as Hc. rewrite Hpcs in Hc. rewrite Hpcs'. apply (Forall_swap _ _ _ _ _ _ Hc).
    - intros q Hq. destruct q; simpl in *; auto; apply step_carry; apply Hq.
    - generalize (ls_read _ _ _ _ _ _ LS). generalize p'. intros q Hl. destruct q; simpl; auto; simpl in Hl.
      + (* the mark just read: the classifier was silent *)
        destruct Hl as [Ep ->]. apply step_carry; [apply (i_next _ Iv Hup)|].
        apply classify_zero. apply (set_flag_zero _ _ Hflag _ Ep).
      + pose proof step_safe_p as Hc'. rewrite Hl in Hc'. apply step_carry; apply Hc'.
  Qed.

  Lemma step_own : Forall (own_ok (ds_d s')) (pcs s').
  Proof.
    pose proof (i_own _ Iv) as Hc. rewrite Hpcs in Hc. rewrite Hpcs'. apply (Forall_swap _ _ _ _ _ _ Hc).
    - intros q Hq. eapply own_ok_mono; [apply (ls_cat _ _ _ _ _ _ LS)|exact Hq].
    - apply (ls_own _ _ _ _ _ _ LS). apply (Forall_elt _ _ _ Hc).
  Qed.

  Lemma thread_step : ds_mode s' <> MDown ->
    (forall e, In e (acked_sbs s') -> In e (acked_sbs s) \/
               b_rows (snd e) = [] \/ In e (db_items (v_buf (ds_v s'))) \/ after_reg p e) ->
    kinds_ok s' -> rec_ok (ds_d s') (ds_v s') (ds_rec s') -> mode_ok s' -> inv s'.
  Proof.
    intros Hup' Hack Hk' Hr' Hm'. constructor; auto using step_live, step_acked, step_safe, step_own.
    (* i_live .. i_own are the lemmas above, i_kinds .. i_mode the premises *)
    - (* i_sorted *) apply step_wal.
    - (* i_next *) intros _. split; [apply step_wal|split; [apply step_lws|]].
      pose proof step_next. destruct (i_next _ Iv Hup) as (_ & _ & Hfl). destruct step_mark as [->|[Hc _]]; lia.
  Qed.
End ThreadStep.

Lemma pcs_split_w ws w1 w w2 tm rec : ws = w1 ++ w :: w2 ->
  map dw_pc ws ++ [tm; rec] = map dw_pc w1 ++ dw_pc w :: (map dw_pc w2 ++ [tm; rec]).
Proof. intros ->. rewrite map_app, <- app_assoc. reflexivity. Qed.

Lemma set_flag_sticky s p : ds_flag s <> 0 -> set_flag s p = ds_flag s.
Proof.
  intros H. unfold set_flag. destruct p; auto. destruct (ds_flag s =? 0) eqn:E; [apply N.eqb_eq in E; contradiction|reflexivity].
Qed.

Lemma flag_sticky c l s : ds_flag s <> 0 -> ds_flag (dstep c l s) = ds_flag s.
Proof.
  intros H. destruct l as [i f|f| | |f| |]; simpl.
  - destruct (ds_mode s); auto. destruct (nth_error (ds_ws s) i) as [w|]; auto.
    destruct (dwstep c f (ds_d s) (ds_v s) w) as [[d' v'] w']. simpl. apply set_flag_sticky; exact H.
  - destruct (ds_mode s); auto.
    destruct (dtstep (ds_shut s) f (ds_d s) (ds_v s) (ds_tm s)) as [[d' v'] p']. simpl. apply set_flag_sticky; exact H.
  - destruct (ds_mode s); auto. destruct (ds_tm s); auto. destruct (ds_shut s); auto.
  - destruct (ds_mode s); auto.
  - destruct (ds_mode s); auto.
    destruct (drstep f (ds_d s) (ds_v s) (ds_rec s)) as [[d' v'] r]. destruct r; simpl; apply set_flag_sticky; exact H.
  - destruct (ds_mode s); auto.
  - destruct (ds_mode s); auto.
Qed.

Lemma flag_sticky_run c ls : forall s, ds_flag s <> 0 -> ds_flag (drun c ls s) = ds_flag s.
Proof.
  induction ls as [|l t IH]; intros s H; simpl; [reflexivity|].
  rewrite IH; [apply flag_sticky; exact H|rewrite flag_sticky; exact H].
Qed.

Lemma drun_app c l1 l2 s : drun c (l1 ++ l2) s = drun c l2 (drun c l1 s).
Proof. unfold drun. apply fold_left_app. Qed.

Lemma flag_zero_prefix c l1 l2 s : ds_flag (drun c (l1 ++ l2) s) = 0 -> ds_flag (drun c l1 s) = 0.
Proof.
  rewrite drun_app. intros H. destruct (N.eq_dec (ds_flag (drun c l1 s)) 0) as [E|E]; [exact E|].
  rewrite (flag_sticky_run c l2 _ E) in H. contradiction.
Qed.

Lemma pcs_all_idle ws : Forall (fun w => dw_pc w = QIdle) ws <->
  Forall (fun p => p = QIdle) (map dw_pc ws ++ [QIdle; QIdle]).
Proof.
  rewrite Forall_app, Forall_map. split; [intros H; split; [exact H|repeat constructor]|tauto].
Qed.

Lemma idle_flat (f : dpc -> list sb) l : f QIdle = [] -> Forall (fun p => p = QIdle) l -> flat_map f l = [].
Proof.
  intros Hf H. induction H as [|p r Hp _ IH]; simpl; [reflexivity|]. subst p. rewrite Hf, IH. reflexivity.
Qed.

Lemma idle_Forall (P : dpc -> Prop) l : P QIdle -> Forall (fun p => p = QIdle) l -> Forall P l.
Proof. intros HP. apply Forall_impl. intros p ->. exact HP. Qed.

(* no process: after a crash, a failed ensure_wal, and initially *)
Lemma inv_down d ws fl :
  wal_sorted d -> Forall (fun w => dw_pc w = QIdle) ws ->
  (forall e, In e (flat_map w_acked ws) -> b_rows (snd e) <> [] ->
             InK e (cat_sbs d) \/ InK e (wal_sbs d) /\ d_flushed d < fst e) ->
  inv (mkDs d v_dead MDown ws QIdle QIdle false fl).
Proof.
  intros Hs Hidle Hack. pose proof (proj1 (pcs_all_idle ws) Hidle) as Hpcs.
  constructor; simpl.
  - (* i_sorted *) exact Hs.
  - (* i_next *) intros H; contradiction.
  - (* i_live *) intros x. unfold live, vL, pcs. simpl. rewrite (idle_flat pc_live _ eq_refl Hpcs). intros [].
  - (* i_acked *) exact Hack.
  - (* i_safe *) apply idle_Forall; [exact I|exact Hpcs].
  - (* i_own *) apply idle_Forall; [exact I|exact Hpcs].
  - (* i_kinds *) split; [|split; exact I]. apply Forall_app in Hpcs. apply (idle_Forall _ _ I), Hpcs.
  - (* i_rec *) exact I.
  - (* i_mode *) split; [reflexivity|exact Hpcs].
Qed.

Lemma go_down s d' ws' fl :
  inv s -> ds_mode s <> MDown ->
  wal_entries d' = wal_entries (ds_d s) -> d_flushed d' = d_flushed (ds_d s) ->
  (forall x, In x (cat_sbs (ds_d s)) -> In x (cat_sbs d')) ->
  Forall (fun w => dw_pc w = QIdle) ws' ->
  (forall e, In e (flat_map w_acked ws') -> In e (acked_sbs s)) ->
  inv (mkDs d' v_dead MDown ws' QIdle QIdle false fl).
Proof.
  intros Iv Hup Ew Ef Hc Hidle Hack. apply inv_down; [|exact Hidle|].
  - unfold wal_sorted. rewrite Ew. apply (i_sorted _ Iv).
  - intros e He Hr. destruct (i_acked _ Iv e (Hack e He) Hr) as [Hq|Hq].
    + left. eapply InK_incl; [exact Hc|exact Hq].
    + right. unfold wal_sbs. rewrite Ew, Ef. apply live_key; [exact Iv|].
      destruct (ds_mode s); [contradiction|exact Hq|exact Hq]. (* MDown | MRec | MUp *)
Qed.

Lemma crash_w_idle ws : Forall (fun w => dw_pc w = QIdle) (map crash_w ws).
Proof.
  apply Forall_map, Forall_forall. intros w _. unfold crash_w. destruct (pc_batch (dw_pc w)); reflexivity.
Qed.

Lemma crash_w_acked ws e : In e (flat_map w_acked (map crash_w ws)) -> In e (flat_map w_acked ws).
Proof.
  rewrite flat_map_map, !in_flat_map. intros (w & Hw & He). exists w. split; [exact Hw|].
  unfold crash_w in He. destruct (pc_batch (dw_pc w)); [|exact He].
  unfold w_acked, dw_finish in He. simpl in He. rewrite flat_map_app, in_app_iff in He.
  destruct He as [He|[]]. exact He.
Qed.

(* DCrash with d' = the durable state, DCrashRot with d' = rotated of it *)
Lemma inv_step_crash s d' :
  inv s -> wal_entries d' = wal_entries (ds_d s) -> d_flushed d' = d_flushed (ds_d s) ->
  cat_sbs d' = cat_sbs (ds_d s) ->
  inv (match ds_mode s with
       | MDown => s
       | _ => mkDs d' v_dead MDown (map crash_w (ds_ws s)) QIdle QIdle false (ds_flag s)
       end).
Proof.
  intros Iv Ew Ef Ec.
  assert (Hdown : ds_mode s <> MDown ->
                  inv (mkDs d' v_dead MDown (map crash_w (ds_ws s)) QIdle QIdle false (ds_flag s))).
  { intros Hup. apply (go_down s); auto.
    - rewrite Ec. auto.
    - apply crash_w_idle.
    - intros e. apply crash_w_acked. }
  destruct (ds_mode s); [exact Iv|apply Hdown; discriminate|apply Hdown; discriminate]. (* MDown | MRec | MUp *)
Qed.

Lemma wal_entries_rotated d : wal_entries (rotated d) = wal_entries d.
Proof. unfold wal_entries, rotated; simpl. rewrite concat_app. simpl. rewrite !app_nil_r. reflexivity. Qed.

Lemma inv_init todos : inv (dinit todos).
Proof.
  apply inv_down.
  - exact I.
  - apply Forall_map, Forall_forall. reflexivity.
  - intros e He. exfalso. rewrite flat_map_map in He. apply in_flat_map in He. destruct He as (t & _ & []).
Qed.

Lemma max_seq_bound d : wal_sorted d -> forall x, In x (wal_entries d) -> we_seq x <= max_seq_of d.
Proof.
  unfold wal_sorted, max_seq_of. intros Hs x Hx.
  destruct (last_seq (wal_entries d)) as [m|] eqn:E.
  - eapply last_seq_max; eauto.
  - apply last_seq_empty in E. rewrite E in Hx. destruct Hx.
Qed.

Lemma replay_in d x : In x (replay_sbs d) <-> In x (wal_sbs d) /\ d_flushed d < fst x.
Proof. unfold replay_sbs. rewrite filter_In, N.ltb_lt. tauto. Qed.

Lemma replay_key d e : InK e (wal_sbs d) -> d_flushed d < fst e -> InK e (replay_sbs d).
Proof.
  intros Hw Hf. destruct (InK_elim _ _ Hw) as (y & Hy & Ek).
  eapply InK_key_eq; [exact Ek|]. apply InK_intro. apply replay_in. split; [exact Hy|].
  rewrite (skey_fst _ _ Ek). exact Hf.
Qed.

(* ensure_wal starts on a fresh process *)
Lemma rec_start s fl :
  inv s -> ds_mode s = MDown ->
  inv (mkDs (ds_d s) (v_fresh (ds_d s)) MRec (ds_ws s) QIdle
            (QScan (replay_sbs (ds_d s)) (d_flushed (ds_d s)) (d_flushed (ds_d s))) false fl).
Proof.
  intros Iv Hm. pose proof (i_mode _ Iv) as Him. unfold mode_ok in Him. rewrite Hm in Him. destruct Him as [_ Hp].
  unfold pcs in Hp. apply Forall_app in Hp. destruct Hp as [Hidle Htr].
  set (d := ds_d s) in *. set (s' := mkDs _ _ _ _ _ _ _ _).
  (* all that is volatile is what will be replayed *)
  assert (HL : Lset s' = replay_sbs d /\ live s' = replay_sbs d).
  { unfold Lset, live, vL, pcs. simpl.
    rewrite !flat_map_app, (idle_flat pc_L _ eq_refl Hidle), (idle_flat pc_live _ eq_refl Hidle). simpl.
    rewrite app_nil_r. split; reflexivity. }
  destruct HL as [HL Hlive].
  pose proof (N.le_max_l (max_seq_of d) (d_flushed d)) as M1.
  pose proof (N.le_max_r (max_seq_of d) (d_flushed d)) as M2.
  constructor; simpl.
  - (* i_sorted *) apply (i_sorted _ Iv).
  - (* i_next *) intros _. split; [|split]; try lia.
    intros x Hx. pose proof (max_seq_bound d (i_sorted _ Iv) x Hx). lia.
  - (* i_live *) intros x Hx. rewrite Hlive in Hx. apply replay_in in Hx. split; [apply InK_intro|]; apply Hx.
  - (* i_acked *) intros e He Hr. destruct (i_acked _ Iv e He Hr) as [Hq|Hq]; [left; exact Hq|right].
    rewrite Hm in Hq. rewrite HL. apply replay_key; apply Hq.
  - (* i_safe *) apply Forall_app. split; [apply idle_Forall; [exact I|exact Hidle]|repeat constructor].
  - (* i_own *) apply Forall_app. split; [apply idle_Forall; [exact I|exact Hidle]|repeat constructor].
  - (* i_kinds *) split; [apply idle_Forall; [exact I|exact Hidle]|split; [exact I|reflexivity]].
  - (* i_rec *) lia.
  - (* i_mode *) split; [apply Forall_map in Hidle; exact Hidle|reflexivity].
Qed.

(* ensure_wal performs a step of the local specification and stays in
   recovery, or finishes and the process is up *)
Lemma rec_thread_step s d' v' md p' :
  inv s -> ds_mode s = MRec -> md = MRec \/ md = MUp /\ p' = QIdle ->
  lspec (ds_d s) (ds_v s) (ds_rec s) d' v' p' -> set_flag s (ds_rec s) = 0 ->
  kind OfRecovery p' -> rec_ok d' v' p' ->
  inv (mkDs d' v' md (ds_ws s) QIdle p' false (set_flag s (ds_rec s))).
Proof.
  intros Iv Em Hmd LS Hf Hk' Hr'.
  destruct (i_kinds _ Iv) as (Hkw & _ & _).
  pose proof (i_mode _ Iv) as Hmode. unfold mode_ok in Hmode. rewrite Em in Hmode.
  destruct Hmode as [Hwsidle Htmidle].
  apply (thread_step s _ (map dw_pc (ds_ws s) ++ [QIdle]) [] (ds_rec s) p'); simpl; auto.
  - (* Hup *) rewrite Em. discriminate.
  - (* Hpcs *) unfold pcs. rewrite Htmidle, <- app_assoc. reflexivity.
  - (* Hpcs' *) unfold pcs; simpl. rewrite <- app_assoc. reflexivity.
  - (* Hrb *) pose proof (i_rec _ Iv) as Hr. intros rest maxs fl0 [E|E]; rewrite E in Hr; simpl in Hr; tauto.
  - (* not down afterwards *) destruct Hmd as [->|[-> _]]; discriminate.
  - (* kinds_ok *) split; [exact Hkw|split; [exact I|exact Hk']].
  - (* mode_ok *) unfold mode_ok; simpl. destruct Hmd as [->|[-> ->]]; [split; [exact Hwsidle|reflexivity]|reflexivity].
Qed.

(* what is still to be replayed has its WAL entry, hence a sequence number below next_seq *)
Lemma rec_rest_below s x : inv s -> ds_mode s <> MDown -> In x (pc_L (ds_rec s)) -> fst x < v_next (ds_v s).
Proof.
  intros Iv Hup Hx.
  assert (Hin : In x (live s)).
  { apply in_or_app. right. apply in_flat_map. exists (ds_rec s).
    split; [unfold pcs; rewrite in_app_iff; simpl; auto|apply pc_L_live; exact Hx]. }
  destruct (i_live _ Iv x Hin) as [Hw _]. destruct (wal_key_entry _ _ Hw) as (y & Hy & Ey & _).
  destruct (i_next _ Iv Hup) as (Hnext & _). specialize (Hnext y Hy). lia.
Qed.

Lemma inv_step_rec c f s : inv s -> ds_flag (dstep c (DRec f) s) = 0 -> inv (dstep c (DRec f) s).
Proof.
  intros Iv Hf. simpl in *. destruct (ds_mode s) eqn:Em.
  - (* no process: ensure_wal starts *) apply rec_start; assumption.
  - destruct (drstep f (ds_d s) (ds_v s) (ds_rec s)) as [[d' v'] rr] eqn:Es.
    pose proof (drstep_spec _ _ _ _ _ _ _ Es (proj2 (proj2 (i_kinds _ Iv)))) as Hspec.
    destruct rr as [p'| |]; simpl in Hf.
    + (* still recovering *)
      destruct Hspec as [LS Hk']. apply rec_thread_step; auto.
      eapply drstep_rec_ok; [exact Es|apply (i_kinds _ Iv)|apply (i_rec _ Iv)|].
      intros x. apply rec_rest_below; [exact Iv|rewrite Em; discriminate].
    + (* ensure_wal returned Ok: the process is up *)
      apply rec_thread_step; auto; exact I.
    + (* ensure_wal failed: the process is given up *)
      destruct Hspec as (Hd1 & Hd2 & Hd3). apply (go_down s); auto.
      * rewrite Em. discriminate.
      * pose proof (i_mode _ Iv) as Hm. unfold mode_ok in Hm. rewrite Em in Hm. apply Hm.
  - exact Iv.
Qed.

Lemma inv_step_writer c i f s : inv s -> ds_flag (dstep c (DW i f) s) = 0 -> inv (dstep c (DW i f) s).
Proof.
  intros Iv Hf. simpl in *. destruct (i_kinds _ Iv) as (Hkw & Hkt & Hkr).
  pose proof (i_mode _ Iv) as Hmode. unfold mode_ok in Hmode.
  destruct (ds_mode s) eqn:Em; try exact Iv.
  destruct (nth_error (ds_ws s) i) as [w|] eqn:En; try exact Iv.
  destruct (dwstep c f (ds_d s) (ds_v s) w) as [[d' v'] w'] eqn:Es. simpl in Hf.
  destruct (upd_nth_split _ _ _ w' En) as (w1 & w2 & Ews & Eupd).
  pose proof Hkw as Hkw'. rewrite Ews, map_app in Hkw'.
  assert (Hk : kind OfWriter (dw_pc w)) by apply (Forall_elt _ _ _ Hkw').
  destruct (dwstep_spec _ _ _ _ _ _ _ _ Es Hk) as (LS & Hk' & Hres).
  apply (thread_step s _ (map dw_pc w1) (map dw_pc w2 ++ [ds_tm s; ds_rec s]) (dw_pc w) (dw_pc w')); simpl; auto.
  - (* Hup *) rewrite Em. discriminate.
  - (* Hpcs *) apply pcs_split_w; exact Ews.
  - (* Hpcs' *) apply pcs_split_w; exact Eupd.
  - (* Hrb: not a pc of writers *) intros rest maxs fl0 [E|E]; rewrite E in Hk; discriminate.
  - (* not down afterwards *) discriminate.
  - (* new acknowledgements *) unfold acked_sbs; simpl. rewrite Eupd, Ews. apply (flat_swap w_acked w1 w2 w' w [] []). exact Hres.
  - (* kinds_ok *) split; [|split; assumption]. simpl. rewrite Eupd, map_app. apply (Forall_swap _ _ _ _ _ _ Hkw'); auto.
  - (* rec_ok *) rewrite Hmode; exact I.
Qed.

(* the timer task moves from p to p' by a step of the local specification *)
Lemma timer_thread_step s d' v' p' sh fl :
  inv s -> ds_mode s = MUp -> lspec (ds_d s) (ds_v s) (ds_tm s) d' v' p' -> set_flag s (ds_tm s) = 0 ->
  kind OfTimer p' -> inv (mkDs d' v' MUp (ds_ws s) p' (ds_rec s) sh fl).
Proof.
  intros Iv Em LS Hf Hk'. destruct (i_kinds _ Iv) as (Hkw & Hkt & Hkr).
  pose proof (i_mode _ Iv) as Hmode. unfold mode_ok in Hmode. rewrite Em in Hmode.
  apply (thread_step s _ (map dw_pc (ds_ws s)) [ds_rec s] (ds_tm s) p'); simpl; auto.
  - (* Hup *) rewrite Em. discriminate.
  - (* Hrb: not a pc of the timer *) intros rest maxs fl0 [E|E]; rewrite E in Hkt; discriminate.
  - (* not down afterwards *) discriminate.
  - (* kinds_ok *) split; [exact Hkw|split; [exact Hk'|exact Hkr]].
  - (* rec_ok *) rewrite Hmode; exact I.
Qed.

Lemma inv_step_timer c f s : inv s -> ds_flag (dstep c (DT f) s) = 0 -> inv (dstep c (DT f) s).
Proof.
  intros Iv Hf. simpl in *. destruct (ds_mode s) eqn:Em; try exact Iv.
  destruct (dtstep (ds_shut s) f (ds_d s) (ds_v s) (ds_tm s)) as [[d' v'] p'] eqn:Es. simpl in Hf.
  destruct (dtstep_spec _ _ _ _ _ _ _ _ Es (proj1 (proj2 (i_kinds _ Iv)))) as (LS & Hk').
  apply timer_thread_step; assumption.
Qed.

Lemma inv_step_tick c s : inv s -> ds_flag (dstep c DTick s) = 0 -> inv (dstep c DTick s).
Proof.
  intros Iv Hf. simpl in *. destruct (ds_mode s) eqn:Em; try exact Iv.
  destruct (ds_tm s) eqn:Et; try exact Iv. destruct (ds_shut s); try exact Iv. simpl in Hf.
  apply timer_thread_step; try assumption.
  - rewrite Et. apply lspec_move; try reflexivity; discriminate.
  - rewrite Et. exact Hf.
  - reflexivity.
Qed.

(* the shutdown token is not in the invariant *)
Lemma inv_step_shut c s : inv s -> inv (dstep c DShut s).
Proof.
  intros Iv. destruct s as [d v m ws tm rc sh fl]. destruct m; try exact Iv.
  destruct Iv. constructor; assumption.
Qed.

Lemma inv_step c l s : inv s -> ds_flag (dstep c l s) = 0 -> inv (dstep c l s).
Proof.
  intros Iv Hf. destruct l as [i f|f| | |f| |].
  - apply inv_step_writer; assumption.
  - apply inv_step_timer; assumption.
  - apply inv_step_tick; assumption.
  - apply inv_step_shut; exact Iv.
  - apply inv_step_rec; assumption.
  - apply (inv_step_crash s (ds_d s)); auto.
  - apply (inv_step_crash s (rotated (ds_d s))); auto using wal_entries_rotated.
Qed.

Lemma inv_run c ls : forall s, inv s -> ds_flag (drun c ls s) = 0 -> inv (drun c ls s).
Proof.
  induction ls as [|l t IH]; intros s Iv Hf; [exact Iv|].
  apply IH; [|exact Hf]. apply inv_step; [exact Iv|]. apply (flag_zero_prefix c [l] t s Hf).
Qed.

Lemma inv_durable s : inv s -> Durable s.
Proof.
  intros Iv e r He Hr.
  assert (Hne : b_rows (snd e) <> []) by (intros E; rewrite E in Hr; destruct Hr).
  destruct (i_acked _ Iv e He Hne) as [Hc|Hq].
  - left. unfold dcat_rows. eapply InK_rows; eauto.
  - right. apply (InK_rows e (replay_sbs (ds_d s)) r); [|exact Hr].
    (* MRec, MUp: what is in Lset has its WAL entry above the mark *)
    destruct (ds_mode s); [|apply (live_key _ _ Iv) in Hq..]; apply replay_key; apply Hq.
Qed.

(* C01 modulo the two known classes: on every schedule on which the classifier
   stays silent, every row of every acknowledged write is in a registered
   chunk or is replayed by the next ensure_wal — in every reachable state,
   hence after any crash, restart, failed or retried flush. *)
Theorem durable_modulo_known : forall c todos ls,
  known_class c todos ls = 0 -> Durable (drun c ls (dinit todos)).
Proof.
  intros c todos ls H. apply inv_durable. apply inv_run; [apply inv_init|exact H].
Qed.

(* the same for every prefix: Durable holds all along the run *)
Theorem durable_modulo_known_prefix : forall c todos l1 l2,
  known_class c todos (l1 ++ l2) = 0 -> Durable (drun c l1 (dinit todos)).
Proof.
  intros c todos l1 l2 H. apply durable_modulo_known. exact (flag_zero_prefix c l1 l2 _ H).
Qed.

Lemma row_eqb_refl r : row_eqb r r = true.
Proof. unfold row_eqb. rewrite N.eqb_refl, Z.eqb_refl. reflexivity. Qed.

Lemma mem_row_In r l : In r l -> mem_row r l = true.
Proof. intros H. unfold mem_row. apply existsb_exists. exists r. split; [exact H|apply row_eqb_refl]. Qed.

Lemma durable_b_complete s : Durable s -> durable_b s = true.
Proof.
  intros H. unfold durable_b. apply forallb_forall. intros e He. apply forallb_forall. intros r Hr.
  destruct (H e r He Hr) as [H1|H1]; rewrite (mem_row_In _ _ H1); [reflexivity|apply orb_true_r].
Qed.

(* n = m rides along so that each witness below, a pair (~ Durable, class = k),
   is decided by one evaluation *)
Lemma refuted s (n m : N) : durable_b s = false /\ n = m -> ~ Durable s /\ n = m.
Proof.
  intros [H E]. split; [|exact E]. intros D. rewrite (durable_b_complete s D) in H. discriminate.
Qed.

(* witnesses of the full statement's failure *)
Definition wb (sch : N) (ids : list N) : wreq :=
  mkReq (mkBatch sch (map (fun i => mkRow i (Z.of_N i)) ids) 100) 1000 200.
Definition wcfg (rows : N) : dcfg := mkDcfg (mkCfg rows 1000000 1000000 0%Z) 1.
(* ensure_wal on a fresh process with an empty WAL: start, empty scan, finish;
   the process is up *)
Definition up3 : list dlabel := [DRec FNone; DRec FNone; DRec FNone].
Definition wn (i : nat) (n : nat) : list dlabel := repeat (DW i FNone) n.

(* K1: writer 0's threshold flush has taken the buffer and is at its PUT;
   writer 1's write is logged (seq 2), buffered and acknowledged; the flush then
   reads last_wal_seq = 2, truncates and persists it. *)
Definition k1_todos : list (list wreq) := [[wb 1 [1; 2]]; [wb 1 [3]]].
Definition k1_sched : list dlabel := up3 ++ wn 0 4 ++ wn 1 4 ++ wn 0 5.

Lemma refuted_inflight_ack :
  ~ Durable (drun (wcfg 2) k1_sched (dinit k1_todos)) /\ known_class (wcfg 2) k1_todos k1_sched = 1.
Proof. apply refuted. vm_compute. split; reflexivity. Qed.

(* K1 with a single writer: the second write has another schema; its WAL
   sequence number is stored before the schema-change flush of the first batch
   runs, so that flush marks the second batch as flushed although it is only
   buffered (and acknowledged) afterwards. *)
Definition k1s_todos : list (list wreq) := [[wb 1 [1]; wb 2 [2]]].
Definition k1s_sched : list dlabel := up3 ++ wn 0 4 ++ wn 0 11.

Lemma refuted_schema_change_ack :
  ~ Durable (drun (wcfg 100) k1s_sched (dinit k1s_todos)) /\ known_class (wcfg 100) k1s_todos k1s_sched = 1.
Proof. apply refuted. vm_compute. split; reflexivity. Qed.

(* K2: the flush of [w1, w2] fails at its PUT (w1 was acknowledged, both are
   dropped); the later flush of [w3, w4] reads last_wal_seq = 4 and persists it. *)
Definition k2_todos : list (list wreq) := [[wb 1 [1]; wb 1 [2]; wb 1 [3]; wb 1 [4]]].
Definition k2_sched : list dlabel :=
  up3 ++ wn 0 4 ++ wn 0 4 ++ [DW 0 FBefore] ++ wn 0 4 ++ wn 0 4 ++ wn 0 5.

Lemma refuted_failed_flush :
  ~ Durable (drun (wcfg 2) k2_sched (dinit k2_todos)) /\ known_class (wcfg 2) k2_todos k2_sched = 2.
Proof. apply refuted. vm_compute. split; reflexivity. Qed.

(* non-vacuity of durable_modulo_known: three writers (one idle), a failed
   flush, two crashes with restarts, and the classifier silent *)
Definition nv_todos : list (list wreq) := [[wb 1 [1]; wb 1 [2]]; [wb 1 [3]]; []].
Definition nv_sched : list dlabel :=
  up3 ++ wn 0 4 ++ [DCrash] ++ repeat (DRec FNone) 4 ++ wn 0 4 ++ [DW 0 FBefore; DCrash]
  ++ repeat (DRec FNone) 5 ++ wn 1 10 ++ [DShut; DT FNone; DT FNone].

Example modulo_known_nonvacuous :
  known_class (wcfg 2) nv_todos nv_sched = 0
  /\ length (acked_sbs (drun (wcfg 2) nv_sched (dinit nv_todos))) = 2%nat
  /\ durable_b (drun (wcfg 2) nv_sched (dinit nv_todos)) = true.
Proof. vm_compute. repeat split. Qed.

Lemma is_run_refl c s : exists ls, s = drun c ls s.
Proof. exists []. reflexivity. Qed.

Lemma is_run_step c l s t : (exists ls, t = drun c ls (dstep c l s)) -> exists ls, t = drun c ls s.
Proof. intros [ls H]. exists (l :: ls). exact H. Qed.

Lemma dsettle_w_is_run c fuel : forall i s, exists ls, dsettle_w c fuel i s = drun c ls s.
Proof.
  induction fuel as [|f IH]; intros i s; cbn [dsettle_w]; [apply is_run_refl|].
  destruct (ds_mode s); try apply is_run_refl.
  destruct (nth_error (ds_ws s) i) as [w|]; [|apply is_run_refl].
  destruct (dw_parked w); [apply is_run_refl|]. apply (is_run_step c (DW i FNone)), IH.
Qed.

Lemma dsettle_t_is_run c fuel : forall s, exists ls, dsettle_t c fuel s = drun c ls s.
Proof.
  induction fuel as [|f IH]; intros s; cbn [dsettle_t]; [apply is_run_refl|].
  destruct (ds_mode s); try apply is_run_refl.
  destruct (dt_parked s); [apply is_run_refl|]. apply (is_run_step c (DT FNone)), IH.
Qed.

Lemma dsettle_r_is_run c fuel : forall s, exists ls, dsettle_r c fuel s = drun c ls s.
Proof.
  induction fuel as [|f IH]; intros s; cbn [dsettle_r]; [apply is_run_refl|].
  destruct (dr_parked s); [apply is_run_refl|]. apply (is_run_step c (DRec FNone)), IH.
Qed.

Lemma dmacro_is_run c fuel l s : exists ls, dmacro c fuel l s = drun c ls s.
Proof.
  destruct l as [i f|f| | |f| |]; cbn [dmacro]; eapply is_run_step.
  - apply dsettle_w_is_run.
  - apply dsettle_t_is_run.
  - apply dsettle_t_is_run.
  - apply dsettle_t_is_run.
  - apply dsettle_r_is_run.
  - apply is_run_refl.
  - apply is_run_refl.
Qed.

(* runs at the granularity of the harness are step-level runs *)
Theorem dmacro_run_is_run : forall c fuel ms s,
  exists ls, fold_left (fun s l => dmacro c fuel l s) ms s = drun c ls s.
Proof.
  intros c fuel ms. induction ms as [|m t IH]; intros s; [exists []; reflexivity|].
  cbn [fold_left]. destruct (dmacro_is_run c fuel m s) as [l1 H1]. destruct (IH (dmacro c fuel m s)) as [l2 H2].
  exists (l1 ++ l2). rewrite drun_app, <- H1. exact H2.
Qed.
