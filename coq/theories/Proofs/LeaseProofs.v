(* Proofs/LeaseProofs.v — C08: compaction leases are exclusive while live and
   reclaimable once expired (model: Model/Lease.v; retry machine: Base/CasProto.v).

   Every operation body preserves  LInv = unique keys + StrongExcl  (any two
   DISTINCT ACTIVE leases have disjoint chunk lists — expiry is ignored, so
   this is stronger than the property).  For the object-store backend
   cas_invariant (Proofs/CasProtoProofs.v) lifts this to every version ever written and to
   everything a reader can ever GET, for every schedule of requests and clock
   ticks and any number of nodes; for the in-memory backend it is an induction
   over histories of operations and ticks.  The time-dependent clauses follow:
   acquire succeeds exactly when no live lease overlaps; renew tells a
   reclaimed holder; a lease whose every later committed operation is decided
   before its current deadline is never dropped (and nobody else gets its
   chunks); renew period + total backoff < TTL from the Rust constants. *)
From CS Require Import Base.Prelude Base.AList Base.ListFacts Base.CasProto Proofs.CasProtoProofs Model.Lease.
From CSGen Require Import Consts Funs.
Open Scope Z_scope.

Definition keys_nodup (t : table) : Prop := NoDup (map fst t).

(* the comparisons written in the code are the named predicates
   (generated/Funs.v is re-translated from the Rust sources on every run: a
   changed operator breaks these lemmas) *)
Lemma status_code_active l : Z.eqb (status_code (l_status l)) active_code = is_active l.
Proof. unfold is_active, status_code, active_code. destruct (l_status l); reflexivity. Qed.

Lemma acq_keep_spec b now l : acq_keep b now l = negb (expired now l).
Proof.
  unfold acq_keep, expired, lease_s3_acquire_keep, lease_local_acquire_keep.
  destruct b; rewrite status_code_active; reflexivity.
Qed.

Lemma acq_live_spec b now l : acq_live b now l = live now l.
Proof.
  unfold acq_live, live, lease_s3_acquire_live, lease_local_acquire_live.
  destruct b; rewrite status_code_active, Z.gtb_ltb; reflexivity.
Qed.

Lemma renew_refuse_spec b now l : renew_refuse b now l = negb (is_active l).
Proof.
  unfold renew_refuse, lease_s3_renew_refuse, lease_local_renew_refuse.
  destruct b; rewrite status_code_active; reflexivity.
Qed.

Lemma scav_keep_spec b now l : scav_keep b now l = live now l.
Proof.
  unfold scav_keep, live, lease_s3_scavenge_cond, lease_s3_scavenge_then,
    lease_local_scavenge_cond, lease_local_scavenge_then.
  destruct b; rewrite status_code_active, Z.gtb_ltb; destruct (is_active l); reflexivity.
Qed.

(* the bodies the backends run are the bodies the theorems talk about *)
Theorem body_code_eq b cfg now op t : lease_body_code b cfg now op t = lease_body b cfg now op t.
Proof.
  destruct op as [id h cs lv|id|id|id|]; simpl; try reflexivity.
  - rewrite (filter_ext _ _ (fun x => acq_keep_spec b now (snd x))).
    erewrite flat_map_ext by (intros x; rewrite acq_live_spec; reflexivity).
    reflexivity.
  - destruct (aget N.eqb id t) as [l|]; [|reflexivity].
    rewrite renew_refuse_spec. destruct (is_active l); reflexivity.
  - rewrite (filter_ext _ _ (fun x => scav_keep_spec b now (snd x))). reflexivity.
Qed.

Definition share (a b : list N) : Prop := exists c, In c a /\ In c b.

(* any two distinct ACTIVE leases are disjoint, expired or not *)
Definition StrongExcl (t : table) : Prop :=
  forall i j l1 l2, In (i, l1) t -> In (j, l2) t -> i <> j ->
    is_active l1 = true -> is_active l2 = true -> ~ share (l_chunks l1) (l_chunks l2).

(* the property's predicate at instant [now]: any two distinct leases that
   are active and unexpired at [now] are disjoint *)
Definition Excl (now : Z) (t : table) : Prop :=
  forall i j l1 l2, In (i, l1) t -> In (j, l2) t -> i <> j ->
    live now l1 = true -> live now l2 = true -> ~ share (l_chunks l1) (l_chunks l2).

Definition LInv (t : table) : Prop := keys_nodup t /\ StrongExcl t.

Lemma live_iff now l : live now l = true <-> is_active l = true /\ now < l_expires l.
Proof. unfold live. rewrite andb_true_iff, Z.ltb_lt. reflexivity. Qed.

Lemma expired_iff now l : expired now l = true <-> is_active l = true /\ l_expires l <= now.
Proof. unfold expired. rewrite andb_true_iff, Z.leb_le. reflexivity. Qed.

Lemma live_active now l : live now l = true -> is_active l = true.
Proof. intros H. apply live_iff in H. tauto. Qed.

Lemma live_not_expired now l : live now l = true -> expired now l = false.
Proof. intros H. apply live_iff in H. apply not_true_iff_false. rewrite expired_iff. intros [_ He]. lia. Qed.

Lemma not_expired_live now l : expired now l = false -> is_active l = true -> live now l = true.
Proof.
  intros He Ha. apply not_true_iff_false in He. rewrite expired_iff in He.
  apply live_iff. split; [exact Ha|]. destruct (Z.lt_ge_cases now (l_expires l)); tauto.
Qed.

Lemma strong_excl_at t : StrongExcl t -> forall now, Excl now t.
Proof.
  intros H now i j l1 l2 H1 H2 Hne A1 A2.
  apply (H i j l1 l2 H1 H2 Hne); eapply live_active; eassumption.
Qed.

Lemma LInv_nil : LInv [].
Proof. split; [constructor|]. intros i j l1 l2 []. Qed.

Lemma LInv_filter (f : N * lease -> bool) t : LInv t -> LInv (filter f t).
Proof.
  intros [Hk Hs]. split; [apply nodup_map_filter; exact Hk|].
  intros i j l1 l2 H1 H2. apply filter_In in H1. apply filter_In in H2. apply Hs; tauto.
Qed.

Lemma share_sym a b : share a b -> share b a.
Proof. intros [c [A B]]. exists c. tauto. Qed.

Lemma LInv_aset k l t :
  LInv t ->
  (forall j l2, In (j, l2) t -> j <> k -> is_active l = true -> is_active l2 = true ->
                ~ share (l_chunks l) (l_chunks l2)) ->
  LInv (aset N.eqb k l t).
Proof.
  intros [Hk Hs] Hd. split; [apply (nodup_aset N.eqb Neqb_spec); exact Hk|].
  intros i j l1 l2 H1 H2 Hne A1 A2.
  destruct (In_aset N.eqb Neqb_spec _ _ _ _ _ H1) as [[E1 E1']|O1];
  destruct (In_aset N.eqb Neqb_spec _ _ _ _ _ H2) as [[E2 E2']|O2].
  - subst. contradiction.
  - subst i l1. apply (Hd j l2 O2); auto.
  - subst j l2. intros Hsh. apply share_sym in Hsh. revert Hsh. apply (Hd i l1 O1); auto.
  - apply (Hs i j l1 l2 O1 O2 Hne A1 A2).
Qed.

Lemma LInv_update k l l' t :
  LInv t -> aget N.eqb k t = Some l ->
  l_chunks l' = l_chunks l -> (is_active l' = true -> is_active l = true) ->
  LInv (aset N.eqb k l' t).
Proof.
  intros HL Hg Hc Ha. apply LInv_aset; [exact HL|]. intros j l2 Hin Hne A1 A2. rewrite Hc.
  apply (proj2 HL k j l l2 (aget_In N.eqb Neqb_spec _ _ _ Hg) Hin); auto.
Qed.

Lemma In_drop_expired now t j l :
  In (j, l) (drop_expired now t) <-> In (j, l) t /\ expired now l = false.
Proof. unfold drop_expired. rewrite filter_In, negb_true_iff. reflexivity. Qed.

Lemma In_leased_chunks now t c :
  In c (leased_chunks now t) <-> exists j l, In (j, l) t /\ live now l = true /\ In c (l_chunks l).
Proof.
  unfold leased_chunks. rewrite in_flat_map. split.
  - intros [[j l] [Hin Hc]]. simpl in Hc. destruct (live now l) eqn:E; [|destruct Hc].
    exists j, l. tauto.
  - intros [j [l [Hin [Hl Hc]]]]. exists (j, l). split; [exact Hin|]. simpl. rewrite Hl. exact Hc.
Qed.

Lemma In_conflicts now t cs x :
  In x (conflicts now t cs) <->
  In x cs /\ exists j l, In (j, l) t /\ live now l = true /\ In x (l_chunks l).
Proof. unfold conflicts. rewrite filter_In, memN_In, In_leased_chunks. reflexivity. Qed.

Lemma conflicts_nil_iff now t cs :
  conflicts now t cs = [] <->
  forall j l, In (j, l) t -> live now l = true -> ~ share cs (l_chunks l).
Proof.
  split.
  - intros E j l Hin Hl [c [Hc1 Hc2]].
    assert (Hc : In c (conflicts now t cs)) by (apply In_conflicts; eauto 6).
    rewrite E in Hc. destruct Hc.
  - intros H. destruct (conflicts now t cs) as [|c r] eqn:E; [reflexivity|].
    assert (Hc : In c (conflicts now t cs)) by (rewrite E; left; reflexivity).
    apply In_conflicts in Hc. destruct Hc as [Hc [j [l [Hin [Hl Hx]]]]].
    destruct (H j l Hin Hl). exists c. tauto.
Qed.

Lemma conflicts_drop_expired now t cs : conflicts now (drop_expired now t) cs = conflicts now t cs.
Proof.
  unfold conflicts. apply filter_ext. intros c. apply eq_true_iff_eq.
  rewrite !memN_In, !In_leased_chunks.
  split; intros [j [l [Hin [Hl Hc]]]]; exists j, l; (split; [|tauto]).
  - apply In_drop_expired in Hin. tauto.
  - apply In_drop_expired. split; [exact Hin|apply live_not_expired; exact Hl].
Qed.

Lemma set_status_chunks l s : l_chunks (set_status l s) = l_chunks l.
Proof. reflexivity. Qed.

Lemma set_status_inactive l st : st <> Active -> is_active (set_status l st) = false.
Proof. unfold is_active. destruct st; simpl; congruence. Qed.

Lemma LInv_set_status {k l st t} :
  LInv t -> aget N.eqb k t = Some l -> st <> Active -> LInv (aset N.eqb k (set_status l st) t).
Proof.
  intros HL Hg Hst. apply (LInv_update k l); [exact HL|exact Hg|reflexivity|].
  rewrite set_status_inactive by exact Hst. discriminate.
Qed.

Lemma body_write b cfg now op t t' o :
  lease_body b cfg now op t = Write t' o ->
  match op with
  | OAcquire id h cs lv =>
      (conflicts now t cs = [] /\
       t' = aset N.eqb id (mkLease h cs lv now (now + acq_ttl cfg) Active) (drop_expired now t)) \/
      (b = InMemory /\ t' = drop_expired now t)
  | ORenew id =>
      exists l, aget N.eqb id t = Some l /\ is_active l = true /\
                t' = aset N.eqb id (set_expires l (now + renew_ext cfg)) t
  | OComplete id | OFail id =>
      exists l st, aget N.eqb id t = Some l /\ st <> Active /\ t' = aset N.eqb id (set_status l st) t
  | OScavenge => t' = keep_live now t
  end.
Proof.
  destruct op as [id h cs lv|id|id|id|]; simpl.
  - (* acquire *)
    rewrite conflicts_drop_expired. destruct (conflicts now t cs); [|destruct b].
    + intros [= <- _]. left. split; reflexivity.
    + (* refused on the object store: no write *) discriminate.
    + (* refused in memory: the scavenged table is kept *) intros [= <- _]. right. split; reflexivity.
  - (* renew *)
    destruct (aget N.eqb id t) as [l|]; [|discriminate]. destruct (is_active l) eqn:Ea; [|discriminate].
    intros H; inversion H. exists l. auto.
  - (* complete *)
    destruct (aget N.eqb id t) as [l|]; [|discriminate]. intros H; inversion H.
    exists l, Completed. repeat split. discriminate.
  - (* fail *)
    destruct (aget N.eqb id t) as [l|]; [|discriminate]. intros H; inversion H.
    exists l, Failed. repeat split. discriminate.
  - (* scavenge: the object-store backend writes only when something goes *)
    destruct b; [destruct (N.eqb _ 0); [discriminate|]|]; intros H; inversion H; reflexivity.
Qed.

(* the table an operation leaves behind: the in-memory backend stores it
   whatever the outcome (local_apply_body); the object-store backend PUTs the
   table of a Write and nothing else (lease_decide_commit) *)
Definition after (t : table) (e : eff) : table :=
  match e with Write t' _ => t' | NoWrite _ => t end.

Lemma body_preserves b cfg now op t : LInv t -> LInv (after t (lease_body b cfg now op t)).
Proof.
  intros HL. destruct (lease_body b cfg now op t) as [t' o|o] eqn:Hb; [simpl|exact HL].
  apply body_write in Hb. destruct op as [id h cs lv|id|id|id|].
  - (* acquire: the leases kept are live if active, so none of them is in the way *)
    destruct Hb as [[Ec ->]|[_ ->]]; [|apply LInv_filter; exact HL].
    apply LInv_aset; [apply LInv_filter; exact HL|]. intros j l2 Hin _ _ Ha.
    apply In_drop_expired in Hin. apply (proj1 (conflicts_nil_iff _ _ _) Ec j l2); [tauto|].
    apply not_expired_live; tauto.
  - (* renew *)
    destruct Hb as [l [Eg [Ea ->]]]. apply (LInv_update _ l); auto.
  - (* complete *)
    destruct Hb as [l [st [Eg [Hst ->]]]]. exact (LInv_set_status HL Eg Hst).
  - (* fail *)
    destruct Hb as [l [st [Eg [Hst ->]]]]. exact (LInv_set_status HL Eg Hst).
  - (* scavenge *)
    subst t'. apply LInv_filter. exact HL.
Qed.

Definition opt_inv (v : option table) : Prop := match v with Some t => LInv t | None => True end.

Lemma tbl_inv v : opt_inv v -> LInv (tbl v).
Proof. destruct v; simpl; [tauto|intros _; apply LInv_nil]. Qed.

Lemma lease_decide_commit cfg now op prev v' o :
  lease_decide cfg now op prev = Commit v' o <->
  lease_body ObjectStore cfg now op (tbl prev) = Write v' o.
Proof.
  unfold lease_decide. rewrite body_code_eq.
  destruct (lease_body ObjectStore cfg now op (tbl prev)); split; intros H; inversion H; reflexivity.
Qed.

Theorem lease_decide_preserves cfg now op prev v' o :
  opt_inv prev -> lease_decide cfg now op prev = Commit v' o -> LInv v'.
Proof.
  intros Hp Hd. apply lease_decide_commit in Hd.
  pose proof (body_preserves ObjectStore cfg now op _ (tbl_inv _ Hp)) as H. rewrite Hd in H. exact H.
Qed.

(* for EVERY schedule of object-store requests and clock ticks, any number of
   nodes running any programs, any retry bound: every version of the lease
   file ever written, and whatever a reader can GET at the end of the schedule
   (= at any moment, the schedule being arbitrary), has unique ids and no two
   distinct active leases sharing a chunk — in particular no two leases that
   are live at whatever instant t *)
Theorem excl_object_store cfg retries v0 now0 progs sched :
  opt_inv v0 ->
  let s := run (lease_decide cfg) 0 retries sched (init_sys v0 now0 progs) in
  (forall k, In k (s_log s) -> LInv (k_val k) /\ forall t, Excl t (k_val k)) /\
  (forall v, cur_val s = Some v -> LInv v /\ forall t, Excl t v).
Proof.
  intros H0 s.
  destruct (cas_invariant (lease_decide cfg) 0 retries v0 now0 progs LInv sched H0
              (lease_decide_preserves cfg)) as [A B].
  fold s in A, B. split.
  - intros k Hin. rewrite Forall_forall in A. exact (conj (A k Hin) (strong_excl_at _ (proj2 (A k Hin)))).
  - intros v Hv. rewrite Hv in B. exact (conj B (strong_excl_at _ (proj2 B))).
Qed.

Lemma local_apply_body cfg now op t :
  fst (local_apply cfg now op t) = after t (lease_body InMemory cfg now op t).
Proof. unfold local_apply. rewrite body_code_eq. destruct (lease_body InMemory cfg now op t); reflexivity. Qed.

Lemma local_step_preserves cfg s h : LInv (ls_tab s) -> LInv (ls_tab (local_step cfg s h)).
Proof.
  intros H. destruct h as [d|op]; simpl; [exact H|]. rewrite local_apply_body. apply body_preserves, H.
Qed.

Theorem excl_in_memory cfg h : forall s,
  LInv (ls_tab s) ->
  let s' := local_run_from cfg h s in
  LInv (ls_tab s') /\ forall t, Excl t (ls_tab s').
Proof.
  induction h as [|x r IH]; intros s H; simpl.
  - exact (conj H (strong_excl_at _ (proj2 H))).
  - apply IH. apply local_step_preserves. exact H.
Qed.

Corollary excl_local_run (now0 : Z) (h : list hstep) :
  let s := local_run now0 h in
  LInv (ls_tab s) /\ forall t, Excl t (ls_tab s).
Proof. apply (excl_in_memory local_cfg h (mkLState now0 [] [])). apply LInv_nil. Qed.

Theorem acquire_succeeds_iff b cfg now id h cs lv t :
  0 < acq_ttl cfg ->
  ((exists t' l, lease_body b cfg now (OAcquire id h cs lv) t = Write t' (RLease id l) /\
                 aget N.eqb id t' = Some l /\ live now l = true /\
                 l_holder l = h /\ l_chunks l = cs /\ l_expires l = now + acq_ttl cfg)
   <-> (forall j l, In (j, l) t -> live now l = true -> ~ share cs (l_chunks l))).
Proof.
  intros Httl. rewrite <- conflicts_nil_iff. simpl. rewrite conflicts_drop_expired. split.
  - intros [t' [l [Hb _]]]. destruct (conflicts now t cs); [reflexivity|destruct b; discriminate].
  - intros ->. eexists. eexists. split; [reflexivity|].
    split; [apply (aget_aset_same N.eqb Neqb_spec)|].
    split; [apply live_iff; simpl; split; [reflexivity|lia]|]. auto.
Qed.

(* "a lease whose holder stopped renewing becomes acquirable after its TTL":
   if every lease that shares a chunk with the request is terminal or has
   expires_at <= now, the acquire goes through (on the object-store backend:
   reaches its conditional PUT) and the new lease is live *)
Theorem expired_is_acquirable b cfg now id h cs lv t :
  0 < acq_ttl cfg ->
  (forall j l, In (j, l) t -> share cs (l_chunks l) -> is_active l = false \/ l_expires l <= now) ->
  exists t' l, lease_body b cfg now (OAcquire id h cs lv) t = Write t' (RLease id l) /\
               aget N.eqb id t' = Some l /\ live now l = true /\
               l_holder l = h /\ l_chunks l = cs /\ l_expires l = now + acq_ttl cfg.
Proof.
  intros Httl H. apply acquire_succeeds_iff; [exact Httl|].
  intros j l Hin Hl Hs. apply live_iff in Hl. destruct Hl as [Ha Hlt]. destruct (H j l Hin Hs) as [A|A]; [congruence|lia].
Qed.

(* an acquire that ends without a write was refused by the object-store
   backend, and the error names exactly the requested chunks held by a live
   lease.  (The in-memory backend returns the same error in a Write of the
   scavenged table: body_write, ex_backends_differ_on_refused_acquire.) *)
Theorem acquire_conflict_exact b cfg now id h cs lv t o :
  lease_body b cfg now (OAcquire id h cs lv) t = NoWrite o ->
  b = ObjectStore /\ exists c r, o = EConflict (c :: r) /\
    forall x, In x (c :: r) <-> In x cs /\ exists j l, In (j, l) t /\ live now l = true /\ In x (l_chunks l).
Proof.
  intros H. simpl in H. rewrite conflicts_drop_expired in H.
  destruct (conflicts now t cs) as [|c r] eqn:Ec; [discriminate|].
  destruct b; [|discriminate]. inversion H; subst o. split; [reflexivity|].
  exists c, r. split; [reflexivity|]. intros x. rewrite <- Ec. apply In_conflicts.
Qed.

Theorem renew_outcome b cfg now id t :
  match aget N.eqb id t with
  | None => lease_body b cfg now (ORenew id) t = NoWrite ENotFound
  | Some l =>
      if is_active l
      then lease_body b cfg now (ORenew id) t =
             Write (aset N.eqb id (set_expires l (now + renew_ext cfg)) t) RUnit
      else lease_body b cfg now (ORenew id) t = NoWrite ENotActive
  end.
Proof.
  simpl. destruct (aget N.eqb id t) as [l|]; [|reflexivity]. destruct (is_active l); reflexivity.
Qed.

(* renew reports an error exactly when the id is absent or terminal *)
Theorem renew_error_iff b cfg now id t :
  (exists o, lease_body b cfg now (ORenew id) t = NoWrite o /\ (o = ENotFound \/ o = ENotActive))
  <-> (aget N.eqb id t = None \/ exists l, aget N.eqb id t = Some l /\ is_active l = false).
Proof.
  pose proof (renew_outcome b cfg now id t) as H.
  destruct (aget N.eqb id t) as [l|]; [destruct (is_active l) eqn:Ea|]; rewrite H.
  - (* active: renewed *)
    split; [intros [o [Ho _]]; discriminate|intros [A|[l' [A B]]]; congruence].
  - (* terminal *)
    split; intros _; [right; exists l|exists ENotActive]; auto.
  - (* absent *)
    split; intros _; [left; reflexivity|exists ENotFound; auto].
Qed.

(* an id that is gone stays gone: only an acquire with that very id (UUIDs:
   never) can bring it back *)
Definition not_acquire_of (id : N) (op : lop) : Prop :=
  match op with OAcquire j _ _ _ => j <> id | _ => True end.

Lemma body_absent_stays {b cfg now op t t' o id} :
  aget N.eqb id t = None -> not_acquire_of id op ->
  lease_body b cfg now op t = Write t' o -> aget N.eqb id t' = None.
Proof.
  intros Hg Hop Hb. apply body_write in Hb.
  (* an id that is updated is present, hence another one *)
  assert (Hupd : forall j l l', aget N.eqb j t = Some l -> aget N.eqb id (aset N.eqb j l' t) = None).
  { intros j l l' Ej. rewrite (aget_aset_other N.eqb Neqb_spec); [exact Hg|congruence]. }
  destruct op as [j h cs lv|j|j|j|]; simpl in Hop.
  - (* acquire, of another id *)
    destruct Hb as [[_ ->]|[_ ->]]; [rewrite (aget_aset_other N.eqb Neqb_spec) by congruence|];
      apply (aget_filter_none N.eqb); exact Hg.
  - (* renew *)
    destruct Hb as [l [Ej [_ ->]]]. exact (Hupd _ _ _ Ej).
  - (* complete *)
    destruct Hb as [l [st [Ej [_ ->]]]]. exact (Hupd _ _ _ Ej).
  - (* fail *)
    destruct Hb as [l [st [Ej [_ ->]]]]. exact (Hupd _ _ _ Ej).
  - (* scavenge *)
    subst t'. apply (aget_filter_none N.eqb). exact Hg.
Qed.

Notation lcommit := (commit table lop lout).

(* once the lease id is absent from the stored table, no renew of it ever
   commits again and it stays absent from every later version: every later
   renew attempt is answered ENotFound (renew_outcome) *)
Theorem reclaimed_never_renewed cfg id (log : list lcommit) v :
  chain (lease_decide cfg) v log ->
  aget N.eqb id (tbl v) = None ->
  Forall (fun k => not_acquire_of id (k_op k)) log ->
  Forall (fun k : lcommit => k_op k <> ORenew id /\ aget N.eqb id (k_val k) = None) log.
Proof.
  intros Hc Hg Hops. rewrite Forall_forall in Hops.
  eapply proj1, (chain_Forall (lease_decide cfg) (fun p => aget N.eqb id (tbl p) = None));
    [|exact Hg|exact Hc].
  intros k Hin Hp Hd. apply lease_decide_commit in Hd.
  assert (Hn : aget N.eqb id (k_val k) = None)
    by exact (body_absent_stays Hp (Hops k Hin) Hd).
  split; [split; [|exact Hn]|exact Hn].
  intros E. rewrite E in Hd.
  pose proof (renew_outcome ObjectStore cfg (k_now k) id (tbl (k_prev k))) as Ho.
  rewrite Hp in Ho. congruence.
Qed.

(* the table holds lease [id] for holder h on chunks cs, active, not expiring before e *)
Definition holds (id h : N) (cs : list N) (e : Z) (t : table) : Prop :=
  exists l, aget N.eqb id t = Some l /\ is_active l = true /\
            l_holder l = h /\ l_chunks l = cs /\ e <= l_expires l.

(* "renewed in time", for a sequence of (decide time, operation): every
   operation is decided strictly before the current deadline e of lease id;
   a renew of id moves the deadline to its own decide time + extension;
   nobody completes / fails it, and no acquire re-uses its id *)
Fixpoint in_time (cfg : lcfg) (id : N) (e : Z) (ops : list (Z * lop)) : Prop :=
  match ops with
  | [] => True
  | (now, op) :: r =>
      now < e /\
      match op with
      | ORenew j => if N.eqb j id then in_time cfg id (now + renew_ext cfg) r else in_time cfg id e r
      | OComplete j | OFail j | OAcquire j _ _ _ => j <> id /\ in_time cfg id e r
      | OScavenge => in_time cfg id e r
      end
  end.

(* in_time read one step at a time (in_time_cons): the deadline of lease id
   after [op] decided at [now], and what [op] must not do to it *)
Definition next_deadline (cfg : lcfg) (id : N) (e now : Z) (op : lop) : Z :=
  match op with
  | ORenew j => if N.eqb j id then now + renew_ext cfg else e
  | _ => e
  end.

Definition leaves_alone (id : N) (op : lop) : Prop :=
  match op with
  | OComplete j | OFail j | OAcquire j _ _ _ => j <> id
  | _ => True
  end.

Lemma in_time_cons cfg id e now op r :
  in_time cfg id e ((now, op) :: r) <->
  now < e /\ leaves_alone id op /\ in_time cfg id (next_deadline cfg id e now op) r.
Proof.
  simpl. destruct op as [j h cs lv|j|j|j|]; simpl; try tauto.
  destruct (N.eqb j id); tauto.
Qed.

(* the lease is live before its deadline, so a retain that keeps the live leases keeps it *)
Lemma holds_filter now (f : N * lease -> bool) id h cs e t :
  holds id h cs e t -> now < e -> (forall l, live now l = true -> f (id, l) = true) ->
  holds id h cs e (filter f t).
Proof.
  intros [l [Hget [Hact [Hholder [Hchunks Hexp]]]]] Hlt Hf. exists l. split; [|auto].
  apply (aget_filter_keep N.eqb Neqb_spec); [exact Hget|]. apply Hf, live_iff. split; [exact Hact|lia].
Qed.

Lemma holds_other id h cs e t k l' : k <> id -> holds id h cs e t -> holds id h cs e (aset N.eqb k l' t).
Proof.
  intros Hne [l [A B]]. exists l. split; [|exact B].
  rewrite (aget_aset_other N.eqb Neqb_spec); [exact A|congruence].
Qed.

Lemma body_holds b cfg {now op t id h cs e} :
  holds id h cs e t -> now < e -> leaves_alone id op ->
  holds id h cs (next_deadline cfg id e now op) (after t (lease_body b cfg now op t)).
Proof.
  intros Hh Hlt Hop. destruct (lease_body b cfg now op t) as [t' o|o] eqn:Hb; simpl.
  2:{ (* nothing written, so the table is unchanged; so is the deadline, since
         a renew of id itself cannot be refused *)
    destruct op as [j a bb c|j|j|j|]; try exact Hh. simpl.
    destruct (N.eqb_spec j id) as [->|_]; [exfalso|exact Hh].
    pose proof (renew_outcome b cfg now id t) as Ho.
    destruct Hh as [l [Hget [Hact _]]]. rewrite Hget, Hact in Ho. congruence. }
  apply body_write in Hb.
  destruct op as [j hh cc lv|j|j|j|]; simpl in Hop; simpl next_deadline.
  - (* acquire, of another id *)
    assert (H1 : holds id h cs e (drop_expired now t)).
    { apply (holds_filter now); [exact Hh|exact Hlt|]. intros l Hl. simpl. rewrite (live_not_expired _ _ Hl). reflexivity. }
    destruct Hb as [[_ ->]|[_ ->]]; [apply holds_other; assumption|exact H1].
  - (* renew: of id itself it moves the deadline *)
    destruct Hb as [l [Ej [Ea ->]]]. destruct (N.eqb_spec j id) as [->|Hne]; [|apply holds_other; assumption].
    destruct Hh as [l0 [Hget [Hact [Hholder [Hchunks _]]]]]. rewrite Hget in Ej. inversion Ej; subst l0.
    exists (set_expires l (now + renew_ext cfg)). split; [apply (aget_aset_same N.eqb Neqb_spec)|].
    simpl. exact (conj Hact (conj Hholder (conj Hchunks (Z.le_refl _)))).
  - (* complete, of another id *)
    destruct Hb as [l [st [_ [_ ->]]]]. apply holds_other; assumption.
  - (* fail, of another id *)
    destruct Hb as [l [st [_ [_ ->]]]]. apply holds_other; assumption.
  - (* scavenge *)
    subst t'. apply (holds_filter now); [exact Hh|exact Hlt|]. intros l Hl. exact Hl.
Qed.

Lemma holds_weaken id h cs e e' t : e' <= e -> holds id h cs e t -> holds id h cs e' t.
Proof. intros Hle [l Hl]. exists l. intuition lia. Qed.

Lemma holds_exclusive {id h cs e t} :
  holds id h cs e t -> LInv t ->
  forall j l2, In (j, l2) t -> j <> id -> is_active l2 = true -> ~ share cs (l_chunks l2).
Proof.
  intros [l [Hget [Hact [_ [Hchunks _]]]]] [_ Hs] j l2 Hj Hne Ha. rewrite <- Hchunks.
  apply (Hs id j l l2 (aget_In N.eqb Neqb_spec _ _ _ Hget) Hj); auto.
Qed.

(* along any sequential execution (= what CasProto's linearizability yields
   for the object-store backend): a lease all of whose later committed
   operations are decided in time is present, active, with the same holder and
   chunks, in every later version *)
Theorem in_time_chain cfg id h cs : forall (log : list lcommit) e v,
  chain (lease_decide cfg) (Some v) log ->
  holds id h cs e v ->
  in_time cfg id e (log_ops log) ->
  Forall (fun k => exists e', holds id h cs e' (k_val k)) log.
Proof.
  induction log as [|k r IH]; intros e v Hc Hh Hit; [constructor|].
  destruct Hc as [_ [Hd Hc]].
  change (log_ops (k :: r)) with ((k_now k, k_op k) :: log_ops r) in Hit.
  apply in_time_cons in Hit. destruct Hit as [Hlt [Hop Hit]].
  apply lease_decide_commit in Hd.
  pose proof (body_holds ObjectStore cfg (t := tbl (Some v)) Hh Hlt Hop) as Hh'. rewrite Hd in Hh'.
  constructor; [eexists; exact Hh'|].
  apply (IH _ _ Hc Hh' Hit).
Qed.

Lemma chain_prefix {V Op Out} (decide : Z -> Op -> option V -> decision V Out)
      (pre post : list (commit V Op Out)) : forall prev,
  chain decide prev (pre ++ post) -> chain decide prev pre.
Proof. intros prev Hc. apply (chain_app_iff decide pre post prev), Hc. Qed.

Lemma acquire_commit_holds cfg now id h cs lv prev v' o :
  lease_decide cfg now (OAcquire id h cs lv) prev = Commit v' o ->
  holds id h cs (now + acq_ttl cfg) v'.
Proof.
  intros Hd. apply lease_decide_commit, body_write in Hd.
  destruct Hd as [[_ ->]|[E _]]; [|discriminate].
  eexists. split; [apply (aget_aset_same N.eqb Neqb_spec)|]. simpl. repeat split; reflexivity || lia.
Qed.

(* the full statement for the object-store backend, for every schedule: take
   any committed acquire k0 in the log of successful PUTs; if every later
   commit is decided before the lease's deadline of the moment (acquire time +
   TTL, then last own renew + extension), then in EVERY later version the lease
   is still there, active, same holder, same chunks, and NO OTHER active lease
   (expired or not) shares a chunk with it *)
Theorem renewed_in_time_not_stolen cfg retries v0 now0 progs sched :
  opt_inv v0 ->
  let s := run (lease_decide cfg) 0 retries sched (init_sys v0 now0 progs) in
  forall pre k0 post id h cs lv,
    s_log s = pre ++ k0 :: post ->
    k_op k0 = OAcquire id h cs lv ->
    in_time cfg id (k_now k0 + acq_ttl cfg) (log_ops post) ->
    Forall (fun k => (exists e, holds id h cs e (k_val k)) /\
                     forall j l2, In (j, l2) (k_val k) -> j <> id -> is_active l2 = true ->
                                  ~ share cs (l_chunks l2)) post.
Proof.
  intros H0 s pre k0 post id h cs lv Hlog Hop Hit.
  destruct (cas_linearizable (lease_decide cfg) 0 retries v0 now0 progs sched) as [Hc _].
  fold s in Hc. rewrite Hlog in Hc. apply chain_app_iff in Hc. destruct Hc as [_ [_ [Hd Hpost]]].
  rewrite Hop in Hd. apply acquire_commit_holds in Hd.
  pose proof (in_time_chain cfg id h cs post _ _ Hpost Hd Hit) as Hall.
  destruct (excl_object_store cfg retries v0 now0 progs sched H0) as [Hinv _]. fold s in Hinv.
  rewrite Forall_forall in *. intros k Hin. split; [apply Hall; exact Hin|].
  destruct (Hall k Hin) as [e Hh]. apply (holds_exclusive Hh), Hinv.
  rewrite Hlog. apply in_or_app. right. right. exact Hin.
Qed.

(* the in-memory counterpart of log_ops: every operation of a history paired
   with the clock value it runs at *)
Fixpoint timed (now : Z) (h : list hstep) : list (Z * lop) :=
  match h with
  | [] => []
  | HTick d :: r => timed (now + Z.of_N d) r
  | HOp op :: r => (now, op) :: timed now r
  end.

(* renewed_in_time_not_stolen for the in-memory backend: histories of operations and ticks *)
Theorem renewed_in_time_in_memory cfg id hd cs : forall (h : list hstep) s e,
  LInv (ls_tab s) ->
  holds id hd cs e (ls_tab s) ->
  in_time cfg id e (timed (ls_now s) h) ->
  let s' := local_run_from cfg h s in
  (exists e', holds id hd cs e' (ls_tab s')) /\
  forall j l2, In (j, l2) (ls_tab s') -> j <> id -> is_active l2 = true -> ~ share cs (l_chunks l2).
Proof.
  induction h as [|x r IH]; intros s e HI Hh Hit; simpl.
  - split; [exists e; exact Hh|exact (holds_exclusive Hh HI)].
  - pose proof (local_step_preserves cfg s x HI) as HI'. destruct x as [d|op].
    + apply (IH _ e); [exact HI'|exact Hh|exact Hit].
    + change (timed (ls_now s) (HOp op :: r)) with ((ls_now s, op) :: timed (ls_now s) r) in Hit.
      apply in_time_cons in Hit. destruct Hit as [Hlt [Hop Hit]].
      apply (IH _ (next_deadline cfg id e (ls_now s) op)); [exact HI'| |exact Hit].
      simpl. rewrite local_apply_body. apply body_holds; assumption.
Qed.

(* the arithmetic of the renewal schedule, from the Rust constants.
   The holder starts a renew every LEASE_RENEW_PERIOD_SECS; a renew sleeps at
   most BASE_BACKOFF_MS * (2^MAX_CAS_RETRIES - 1) ms between its attempts.
   Both TTLs (acquire, renew extension; both backends) exceed the sum. *)
Lemma renew_schedule_fits :
  renew_period_ms + backoff_total_ms < acq_ttl s3_cfg /\
  renew_period_ms + backoff_total_ms < renew_ext s3_cfg /\
  renew_period_ms + backoff_total_ms < acq_ttl local_cfg /\
  renew_period_ms + backoff_total_ms < renew_ext local_cfg /\
  0 < acq_ttl s3_cfg /\ 0 < acq_ttl local_cfg.
Proof. vm_compute. repeat split; reflexivity. Qed.

(* a renew round started at s is decided at d >= s; the next round starts one
   period later and is decided (request latency aside) within the total backoff
   of its start: that is before the deadline d + extension set by the first *)
Lemma periodic_renew_before_deadline (P B E s d d' : Z) :
  P + B < E -> s <= d -> d' <= s + P + B -> d' < d + E.
Proof. lia. Qed.

Theorem renew_period_within_ttl (s d d' : Z) :
  s <= d -> d' <= s + renew_period_ms + backoff_total_ms ->
  d' < d + renew_ext s3_cfg /\ d' < d + acq_ttl s3_cfg /\
  d' < d + renew_ext local_cfg /\ d' < d + acq_ttl local_cfg.
Proof.
  intros H1 H2. destruct renew_schedule_fits as [A [B [C [D _]]]].
  pose proof (fun E HE => periodic_renew_before_deadline _ _ E s d d' HE H1 H2) as P.
  exact (conj (P _ B) (conj (P _ A) (conj (P _ D) (P _ C)))).
Qed.

Lemma disjointb_iff a b : disjointb a b = true <-> ~ share a b.
Proof.
  unfold disjointb, share. rewrite forallb_forall. split.
  - intros H [c [A B]]. specialize (H c A). apply memN_In in B. rewrite B in H. discriminate.
  - intros H c A. destruct (memN c b) eqn:E; [|reflexivity].
    exfalso. apply H. exists c. split; [exact A|apply memN_In; exact E].
Qed.

Lemma exclb_from_iff t x r :
  exclb_from t x r = true <->
  forall y, In y r -> fst x <> fst y -> live t (snd x) = true -> live t (snd y) = true ->
            ~ share (l_chunks (snd x)) (l_chunks (snd y)).
Proof.
  induction r as [|y r IH]; simpl; [split; [intros _ y []|reflexivity]|].
  rewrite andb_true_iff, IH, !orb_true_iff, negb_true_iff, andb_false_iff, N.eqb_eq, disjointb_iff.
  split.
  - intros [H1 H2] z [Hz|Hz] Hne A B; [subst z|apply H2; assumption].
    destruct H1 as [[[H1|H1]|H1]|H1]; [congruence|congruence|congruence|exact H1].
  - intros H. split.
    + destruct (live t (snd x)) eqn:A; [|tauto]. destruct (live t (snd y)) eqn:B; [|tauto].
      destruct (N.eq_dec (fst x) (fst y)) as [E|E]; [tauto|].
      right. apply H; auto.
    + intros z Hz. apply H. right. exact Hz.
Qed.

Theorem exclb_iff t v : exclb t v = true <-> Excl t v.
Proof.
  induction v as [|x r IH]; simpl.
  - split; [intros _ i j l1 l2 []|reflexivity].
  - rewrite andb_true_iff, IH, exclb_from_iff. split.
    + intros [H1 H2] i j l1 l2 [A|A] [B|B] Hne La Lb.
      * subst x. inversion B; subst. contradiction.
      * subst x. apply (H1 (j, l2) B); assumption.
      * subst x. intros Hs. apply share_sym in Hs. revert Hs.
        apply (H1 (i, l1) A); simpl; [congruence|assumption|assumption].
      * apply (H2 i j l1 l2); assumption.
    + intros H. split.
      * intros [j l2] Hy Hne La Lb. destruct x as [i l1]. simpl in *.
        apply (H i j l1 l2); [left; reflexivity|right; exact Hy|exact Hne|exact La|exact Lb].
      * intros i j l1 l2 A B. apply H; right; assumption.
Qed.

(* non-vacuity: concrete schedules on the object-store model (times in ms) *)
Definition ex_progs (c : nat) : list lop :=
  match c with
  | O => [OAcquire 1 10 [1; 2]%N 0; ORenew 1]
  | S O => [OAcquire 2 11 [2; 3]%N 0; OAcquire 3 11 [2; 3]%N 0]
  | _ => []
  end.

Definition ex_race : list label := [Req 0; Req 1; Req 0; Req 1; Req 1].

(* first-write race of two overlapping acquires: both load "absent", node 0
   creates the file, node 1's Create fails, it reloads and is refused with the
   shared chunk; exactly one version was written *)
Example ex_overlapping_acquires :
  let s := s3_run ex_race (s3_init None 0 ex_progs) in
  map (fun k => map fst (k_val k)) (s_log s) = [[1%N]] /\
  c_done (s_cl s 1%nat) = [(OAcquire 2 11 [2; 3]%N 0, FAbort (EConflict [2%N]))] /\
  c_done (s_cl s 0%nat) =
    [(OAcquire 1 10 [1; 2]%N 0, FCommit (RLease 1 (mkLease 10 [1; 2]%N 0 0 300000 Active)))].
Proof. vm_compute. repeat split; reflexivity. Qed.

(* the holder stops renewing; once the TTL has passed, the other node's next
   acquire reclaims the chunks (the expired lease is dropped from the file),
   and the old holder's next renew is answered "not found" *)
Example ex_expiry_reclaim_told :
  let s := s3_run (ex_race ++ [Tick 300000; Req 1; Req 1; Req 0]) (s3_init None 0 ex_progs) in
  map (fun k => map fst (k_val k)) (s_log s) = [[1%N]; [3%N]] /\
  c_done (s_cl s 0%nat) =
    [(OAcquire 1 10 [1; 2]%N 0, FCommit (RLease 1 (mkLease 10 [1; 2]%N 0 0 300000 Active)));
     (ORenew 1, FAbort ENotFound)] /\
  Forall (fun k => exclb 300000 (k_val k) = true) (s_log s).
Proof. vm_compute. repeat split; repeat constructor. Qed.

(* one millisecond earlier the lease is still live and the acquire is refused *)
Example ex_not_yet_expired :
  let s := s3_run (ex_race ++ [Tick 299999; Req 1]) (s3_init None 0 ex_progs) in
  map (fun k => map fst (k_val k)) (s_log s) = [[1%N]] /\
  nth_error (c_done (s_cl s 1%nat)) 1 = Some (OAcquire 3 11 [2; 3]%N 0, FAbort (EConflict [2%N])).
Proof. vm_compute. split; reflexivity. Qed.

(* a renew after 120 s moves the deadline to 420 s: at 320 s the other node is refused *)
Example ex_renewed_in_time :
  let s := s3_run (ex_race ++ [Tick 120000; Req 0; Req 0; Tick 200000; Req 1])
                  (s3_init None 0 ex_progs) in
  map (fun k => map (fun x => (fst x, l_expires (snd x))) (k_val k)) (s_log s)
    = [[(1%N, 300000)]; [(1%N, 420000)]] /\
  nth_error (c_done (s_cl s 1%nat)) 1 = Some (OAcquire 3 11 [2; 3]%N 0, FAbort (EConflict [2%N])) /\
  in_time s3_cfg 1 300000 (log_ops (skipn 1 (s_log s))).
Proof. vm_compute. repeat split; reflexivity. Qed.

(* retry exhaustion: node 0's conditional PUT loses MAX_CAS_RETRIES times in a
   row against commits of node 1; it gives up with TooManyRetries and has
   written nothing *)
Definition ex_progs2 (c : nat) : list lop :=
  match c with
  | O => [OAcquire 1 10 [1%N] 0]
  | S O => [OAcquire 2 11 [2%N] 0; OComplete 2; OFail 2; OComplete 2; OFail 2; OComplete 2]
  | _ => []
  end.
Definition ex_round : list label := [Req 0; Req 1; Req 1; Req 0].
Example ex_retry_exhaustion :
  let s := s3_run ([Req 1; Req 1] ++ ex_round ++ ex_round ++ ex_round ++ ex_round ++ ex_round)
                  (s3_init None 0 ex_progs2) in
  c_done (s_cl s 0%nat) = [(OAcquire 1 10 [1%N] 0, FRetries)] /\
  length (s_log s) = 6%nat /\
  Forall (fun k => map fst (k_val k) = [2%N]) (s_log s).
Proof. vm_compute. repeat split; repeat constructor. Qed.

(* the predicate is not trivially true: two live leases sharing chunk 2 *)
Example ex_excl_can_fail :
  let bad := [(1%N, mkLease 10 [1; 2]%N 0 0 300 Active); (2%N, mkLease 11 [2; 3]%N 0 0 300 Active)] in
  ~ Excl 100 bad /\ Excl 300 bad /\ ~ StrongExcl bad.
Proof.
  intros bad. split; [|split].
  - intros H. apply exclb_iff in H. vm_compute in H. discriminate.
  - apply exclb_iff. vm_compute. reflexivity.
  - intros H. pose proof (strong_excl_at _ H 100) as H1. apply exclb_iff in H1. vm_compute in H1. discriminate.
Qed.

(* the in-memory backend keeps the scavenging of a refused acquire, the
   object-store backend does not (no write happens) *)
Example ex_backends_differ_on_refused_acquire :
  let t := [(1%N, mkLease 10 [1%N] 0 0 300 Active); (2%N, mkLease 11 [2%N] 0 0 900 Active)] in
  lease_body ObjectStore s3_cfg 500 (OAcquire 3 12 [2%N] 0) t = NoWrite (EConflict [2%N]) /\
  lease_body InMemory local_cfg 500 (OAcquire 3 12 [2%N] 0) t
    = Write [(2%N, mkLease 11 [2%N] 0 0 900 Active)] (EConflict [2%N]).
Proof. vm_compute. split; reflexivity. Qed.

Example ex_in_memory_history :
  let s := local_run 0 [HOp (OAcquire 1 10 [1; 2]%N 0); HOp (OAcquire 2 11 [2; 3]%N 0);
                        HTick 300000; HOp (OAcquire 3 11 [2; 3]%N 0); HOp (ORenew 1); HOp OScavenge] in
  map fst (ls_tab s) = [3%N] /\
  map (fun o => match o with RLease i _ => Some i | _ => None end) (ls_outs s)
    = [Some 1%N; None; Some 3%N; None; None] /\
  nth_error (ls_outs s) 1 = Some (EConflict [2%N]) /\ nth_error (ls_outs s) 3 = Some ENotFound /\
  nth_error (ls_outs s) 4 = Some (RCount 0).
Proof. vm_compute. repeat split; reflexivity. Qed.
