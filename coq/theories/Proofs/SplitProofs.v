(* Proofs/SplitProofs.v — crash-consistency of the shard split (C14).

   The splitter model (Model/Split.v) is a program over numbered external
   requests; a plan may fail or crash any request before or after its effect.
   Method: a crash-Hoare logic over the run monad.  `triple P m Q` says: from
   any world whose durable state satisfies P, under ANY plan,
     - m leaves the plan as it found it (so "the plan" below is the plan of
       the whole run, whichever part of the run m is);
     - if m returns normally, Q holds of the result and the state;
     - if m stops (error or crash), the durable state satisfies the invariant
       [I], the error is an injected one, and the plan is not empty
       (so a fault-free run never stops).
   [Inv] relates progress file, split state, shard metadata, catalog and
   objects; every request of the program preserves it whether it fails or not
   (that is what the request rule demands), and a fault-free resume from any
   state satisfying it ends in [FinalSt] with every source chunk back-filled,
   from which conservation follows by Proofs/SplitData.v. *)
From Coq Require Import Permutation.
From CS Require Import Base.Prelude Base.AList Base.ListFacts Model.Split Proofs.SplitData.
From CSGen Require Import Consts.
Open Scope Z_scope.

Section SplitProofs.
  Variable arg : shardmeta.
  Variable chunks : list (N * list row).
  Hypothesis chunks_nodup : NoDup (map fst chunks).
  Hypothesis arg_active : sh_state arg = StActive.

  Definition pt : Z := calc_split_point (sh_min arg) (sh_max arg).
  Definition s0 : st := init_state arg chunks.
  Definition AO : list (nkey * list row) := all_outs pt chunks.

  (* the metadata the two new shards must end up with *)
  Definition expA : shardmeta := mkShard 1 (sh_lo arg) pt StActive (sh_min arg) pt.
  Definition expB : shardmeta := mkShard 1 pt (sh_hi arg) StActive pt (sh_max arg).

  Definition same_ranges (m : shardmeta) : Prop :=
    sh_lo m = sh_lo arg /\ sh_hi m = sh_hi arg /\ sh_min m = sh_min arg /\ sh_max m = sh_max arg.
  Definition OldIn (x : sstate) (s : st) : Prop :=
    exists m, s_old s = Some m /\ sh_state m = x.

  Definition intact (s : st) : Prop := s_ocat s = s_ocat s0 /\ s_oobj s = s_oobj s0.
  Definition CutoverComplete (s : st) : Prop :=
    s_split s = None /\ s_a s = Some expA /\ s_b s = Some expB /\ OldIn StPending s.

  Definition Registered (s : st) (k : nkey) : Prop := aget nkey_eqb k (s_ncat s) <> None.
  Definition NewCatOK (s : st) : Prop :=
    forall k m, aget nkey_eqb k (s_ncat s) = Some m ->
      exists rows, In (k, rows) AO /\ aget nkey_eqb k (s_nobj s) = Some rows.
  Definition AllBackfilled (s : st) : Prop := forall k rows, In (k, rows) AO -> Registered s k.
  Definition DoneOK (s : st) (done : list N) : Prop :=
    forall i, In i done -> exists rows, In (i, rows) chunks /\
      forall k r, In (k, r) (outs pt i rows) -> Registered s k.

  Definition late (p : progress) : Prop :=
    pg_phase p = Some PhBackfill \/ pg_phase p = Some PhCutover.
  Definition allflags (p : progress) : Prop :=
    pg_a p = true /\ pg_b p = true /\ pg_old p = true.

  Definition FinalSt (s : st) : Prop :=
    s_prog s = None /\ s_split s = None /\
    (exists a, s_a s = Some a /\ sh_state a = StActive /\ sh_lo a = sh_lo arg /\ sh_hi a = pt
               /\ sh_min a = sh_min arg /\ sh_max a = pt) /\
    (exists b, s_b s = Some b /\ sh_state b = StActive /\ sh_lo b = pt /\ sh_hi b = sh_hi arg
               /\ sh_min b = pt /\ sh_max b = sh_max arg) /\
    (exists o, s_old s = Some o /\ sh_state o = StPending /\ same_ranges o).

  (* What holds of the durable state whether or not a progress file exists.
     b_old    the old shard is there with its ranges, Active or (cut over) Pending
     b_a, b_b a new shard, once it exists, is the expected one
     b_ncat   every catalog entry of the new shards is an expected output whose
              object is stored with the expected rows
     b_nodup  the keys of that catalog are distinct
     b_data   the old shard's catalog and objects are the initial ones until the
              cut-over is complete
     b_split  a split state carries the split point *)
  Record Base (s : st) : Prop := mkBase {
    b_old : exists m, s_old s = Some m /\ same_ranges m /\ (sh_state m = StActive \/ sh_state m = StPending);
    b_a : s_a s = None \/ s_a s = Some expA;
    b_b : s_b s = None \/ s_b s = Some expB;
    b_ncat : NewCatOK s;
    b_nodup : NoDup (map fst (s_ncat s));
    b_data : intact s \/ CutoverComplete s;
    b_split : forall x, s_split s = Some x -> sp_point x = pt }.

  (* The progress file [p] against the rest of the state.
     Of the whole run:
       r_point      the recorded split point
       r_nocleanup  Cleanup is never recorded: the file is removed instead
     Of the back-fill:
       r_nodup, r_done  the chunks recorded as done are distinct source chunks
                    with all their outputs registered
       r_late       once Backfill is recorded every output is registered and the
                    fraction in the split state is full
     Of the cut-over:
       r_a, r_b, r_old  a recorded flag means its step has taken effect
       r_cut        once Cutover is recorded the split state is gone and all
                    three flags are recorded
       r_nosplit    the split state is missing only before start_split or after
                    complete_split, which comes after the three flags
     Before Backfill is recorded:
       r_early      no new shard exists and the old one is Active *)
  Record ProgRel (p : progress) (s : st) : Prop := mkProgRel {
    r_point : pg_point p = pt;
    r_nodup : NoDup (pg_done p);
    r_done : DoneOK s (pg_done p);
    r_a : pg_a p = true -> s_a s = Some expA;
    r_b : pg_b p = true -> s_b s = Some expB;
    r_old : pg_old p = true -> OldIn StPending s;
    r_nocleanup : pg_phase p <> Some PhCleanup;
    r_late : late p -> AllBackfilled s /\
             (forall x, s_split s = Some x -> N.ltb (sp_num x) (sp_den x) = false);
    r_cut : pg_phase p = Some PhCutover -> s_split s = None /\ allflags p;
    r_nosplit : s_split s = None -> pg_phase p = None \/ (late p /\ allflags p);
    r_early : ~ late p -> s_a s = None /\ s_b s = None /\ OldIn StActive s }.

  Arguments b_old {s}. Arguments b_a {s}. Arguments b_b {s}. Arguments b_ncat {s}.
  Arguments b_nodup {s}. Arguments b_data {s}. Arguments b_split {s}.
  Arguments r_point {p s}. Arguments r_nodup {p s}. Arguments r_done {p s}. Arguments r_a {p s}.
  Arguments r_b {p s}. Arguments r_old {p s}. Arguments r_nocleanup {p s}. Arguments r_late {p s}.
  Arguments r_cut {p s}. Arguments r_nosplit {p s}. Arguments r_early {p s}.

  Definition Inv (s : st) : Prop :=
    Base s /\
    match s_prog s with
    | Some p => ProgRel p s
    | None => s = s0 \/ (FinalSt s /\ AllBackfilled s)
    end.

  (* once the first request of the initial run took effect the state never
     looks untouched again *)
  Definition Started (s : st) : Prop := s_prog s <> None \/ s_a s <> None.

  (* The invariant of the logic.  Its second half is switched by a parameter so
     that the logic and [resume_spec] are built once and used twice: with
     [strict = false] they show that [Inv] is preserved from any state, the
     untouched one included; with [strict = true] the same of [Inv /\ Started],
     which excludes the untouched state and so gives [FinalSt] outright after
     a fault-free resume. *)
  Variable strict : bool.
  Definition I (s : st) : Prop := Inv s /\ (strict = true -> Started s).

  Definition triple {A} (P : st -> Prop) (m : M A) (Q : A -> st -> Prop) : Prop :=
    forall w, P (w_st w) ->
      w_plan (fst (m w)) = w_plan w /\
      match snd (m w) with
      | ROk a => Q a (w_st (fst (m w)))
      | RErr e => I (w_st (fst (m w))) /\ e = EInjected /\ w_plan w <> []
      | RCrash => I (w_st (fst (m w))) /\ w_plan w <> []
      end.

  Lemma triple_ret {A} (a : A) (P : st -> Prop) (Q : A -> st -> Prop) :
    (forall s, P s -> Q a s) -> triple P (ret a) Q.
  Proof. intros H w Hw. simpl. split; [reflexivity|apply H; exact Hw]. Qed.

  Lemma triple_bind {A B} (m : M A) (f : A -> M B) P Q R :
    triple P m Q -> (forall a, triple (Q a) (f a) R) -> triple P (bind m f) R.
  Proof.
    intros Hm Hf w Hw. unfold bind.
    specialize (Hm w Hw). destruct (m w) as [w1 r]. simpl in Hm. destruct Hm as [Hpl Hr].
    (* if m stops, so does the whole *)
    destruct r as [a|e|]; [|simpl; split; assumption..].
    specialize (Hf a w1 Hr). destruct (f a w1) as [w2 r2]. simpl in *.
    destruct Hf as [Hpl2 Hr2]. split; [congruence|].
    destruct r2; [exact Hr2| |]; rewrite <- Hpl; exact Hr2.
  Qed.

  Lemma triple_pre {A} (P P' : st -> Prop) (m : M A) Q :
    (forall s, P s -> P' s) -> triple P' m Q -> triple P m Q.
  Proof. intros H Hm w Hw. apply Hm. apply H. exact Hw. Qed.

  Lemma triple_post {A} (P : st -> Prop) (m : M A) (Q Q' : A -> st -> Prop) :
    (forall a s, Q a s -> Q' a s) -> triple P m Q -> triple P m Q'.
  Proof.
    intros H Hm w Hw. specialize (Hm w Hw). destruct (m w) as [w1 r]. simpl in *.
    destruct Hm as [Hpl Hr]. split; [exact Hpl|]. destruct r; [apply H; exact Hr|exact Hr|exact Hr].
  Qed.

  (* a fact [Phi] that does not speak of the state leaves the precondition: when
     it follows from it, when it is a conjunct of it, when it is a witness in it *)
  Lemma triple_assume {A} (Phi : Prop) (P : st -> Prop) (m : M A) Q :
    (forall s, P s -> Phi) -> (Phi -> triple P m Q) -> triple P m Q.
  Proof. intros H1 H2 w Hw. exact (H2 (H1 _ Hw) w Hw). Qed.

  (* this is how a fact about the value a program returned reaches its continuation *)
  Lemma triple_pure {A} (Phi : Prop) (P : st -> Prop) (m : M A) Q :
    (Phi -> triple P m Q) -> triple (fun s => P s /\ Phi) m Q.
  Proof. intros H w [Hw HP]. exact (H HP w Hw). Qed.

  Lemma triple_pre_ex {A T} (P : T -> st -> Prop) (m : M A) Q :
    (forall t, triple (P t) m Q) -> triple (fun s => exists t, P t s) m Q.
  Proof. intros H w [t Hw]. exact (H t w Hw). Qed.

  Lemma plan_get_some k pl m : plan_get k pl = Some m -> pl <> [].
  Proof. destruct pl; simpl; [discriminate|intros _ H; discriminate]. Qed.

  (* The request rule: the precondition implies the invariant (crash / failure
     before the effect), the state after the effect satisfies the invariant
     (crash / failure after the effect), and the request itself succeeds with
     the postcondition. *)
  Lemma triple_request {A} (t : tag) (eff : st -> st * res A) (P : st -> Prop) (Q : A -> st -> Prop) :
    (forall s, P s -> I s) ->
    (forall s, P s -> I (fst (eff s))) ->
    (forall s, P s -> match snd (eff s) with ROk a => Q a (fst (eff s)) | _ => False end) ->
    triple P (request t eff) Q.
  Proof.
    intros H1 H2 H3 w Hw. unfold request.
    destruct (plan_get (w_n w) (w_plan w)) as [md|] eqn:E.
    - (* stopped before the effect (FB, CB), I holds by H1; after it (FA, CA), by H2 *)
      pose proof (plan_get_some _ _ _ E) as Hne. specialize (H1 _ Hw). specialize (H2 _ Hw).
      destruct md; simpl; (split; [reflexivity|]); auto.
    - specialize (H3 _ Hw). destruct (eff (w_st w)) as [s' r] eqn:Ee. simpl in *.
      split; [reflexivity|]. destruct r; [exact H3|contradiction|contradiction].
  Qed.

  Lemma triple_read {A} (t : tag) (g : st -> A) (P : st -> Prop) :
    (forall s, P s -> I s) ->
    triple P (request t (fun s => (s, ROk (g s)))) (fun a s => P s /\ a = g s).
  Proof.
    intros H. apply triple_request; cbn; [exact H|exact H|].
    intros s Hs. split; [exact Hs|reflexivity].
  Qed.

  (* a request that cannot fail by itself and whose error the caller ignores *)
  Lemma triple_ignored (t : tag) (f : st -> st) (P : st -> Prop) :
    (forall s, P s -> I s) -> (forall s, P s -> P (f s)) ->
    triple P (ignore_err (request t (fun s => (f s, ROk tt)))) (fun _ => P).
  Proof.
    intros H1 H2 w Hw. unfold ignore_err, request.
    destruct (plan_get (w_n w) (w_plan w)) as [md|] eqn:E.
    - (* a failure is swallowed and leaves P; a crash leaves I, which P implies *)
      pose proof (plan_get_some _ _ _ E) as Hne.
      destruct md; simpl; (split; [reflexivity|]).
      + (* FB *) exact Hw.
      + (* FA *) exact (H2 _ Hw).
      + (* CB *) exact (conj (H1 _ Hw) Hne).
      + (* CA *) exact (conj (H1 _ (H2 _ Hw)) Hne).
    - simpl. split; [reflexivity|]. apply H2. exact Hw.
  Qed.

  (* during a run the persisted progress is known *)
  Definition At (p : progress) (s : st) : Prop := I s /\ s_prog s = Some p.

  Lemma At_intro {p s} : Base s -> s_prog s = Some p -> ProgRel p s -> At p s.
  Proof.
    intros Hb Hp Hr. split; [|exact Hp]. split.
    - split; [exact Hb|]. rewrite Hp. exact Hr.
    - intros _. left. rewrite Hp. discriminate.
  Qed.

  Lemma At_base {p s} : At p s -> Base s.
  Proof. intros [[[Hb _] _] _]. exact Hb. Qed.

  Lemma At_rel {p s} : At p s -> ProgRel p s.
  Proof. intros [[[_ Hr] _] Hp]. rewrite Hp in Hr. exact Hr. Qed.

  Lemma At_I {p s} : At p s -> I s.
  Proof. intros [H _]. exact H. Qed.

  Lemma At_prog {p s} : At p s -> s_prog s = Some p.
  Proof. intros [_ H]. exact H. Qed.

  (* the request rule when the postcondition knows the progress on file, [q];
     [Y] is what else the caller wants of the result and the state *)
  Lemma request_At {A} (t : tag) (eff : st -> st * res A) q (P : st -> Prop) (Y : A -> st -> Prop) :
    (forall s, P s -> I s) ->
    (forall s, P s -> match snd (eff s) with
                      | ROk a => At q (fst (eff s)) /\ Y a (fst (eff s))
                      | _ => False
                      end) ->
    triple P (request t eff) (fun a s => At q s /\ Y a s).
  Proof.
    intros H1 H2. apply triple_request; [exact H1| |exact H2].
    intros s Hs. specialize (H2 s Hs).
    destruct (snd (eff s)); [exact (At_I (proj1 H2))|destruct H2|destruct H2].
  Qed.

  Lemma early_intact {p s} : At p s -> ~ late p -> intact s.
  Proof.
    intros H Hl. destruct (r_early (At_rel H) Hl) as [Ha _].
    destruct (b_data (At_base H)) as [Hi|[_ [Hc _]]]; [exact Hi|congruence].
  Qed.

  (* no clause of Base or ProgRel reads s_prog: each is the old one as it stands *)
  Lemma Base_set_prog {s} x : Base s -> Base (set_prog s x).
  Proof. intros []. constructor; assumption. Qed.

  Lemma ProgRel_set_prog {p s} x : ProgRel p s -> ProgRel p (set_prog s x).
  Proof. intros []. constructor; assumption. Qed.

  Lemma At_persist {p p' s} : At p s -> ProgRel p' s -> At p' (set_prog s (Some p')).
  Proof.
    intros H Hr. apply At_intro.
    - apply Base_set_prog. exact (At_base H).
    - reflexivity.
    - apply ProgRel_set_prog. exact Hr.
  Qed.

  (* [Y] is what the caller knows besides and wants to keep *)
  Lemma persist_keep p q (P Y : st -> Prop) :
    (forall s, P s -> At p s /\ ProgRel q s /\ Y (set_prog s (Some q))) ->
    triple P (persist q) (fun _ s => At q s /\ Y s).
  Proof.
    intros H. unfold persist. apply request_At.
    - intros s Hs. exact (At_I (proj1 (H s Hs))).
    - intros s Hs. destruct (H s Hs) as [Hp [Hr HY]]. cbn. split; [exact (At_persist Hp Hr)|exact HY].
  Qed.

  Lemma persist_spec p q (P : st -> Prop) :
    (forall s, P s -> At p s /\ ProgRel q s) -> triple P (persist q) (fun _ s => At q s).
  Proof.
    intros H. eapply triple_post; [|apply (persist_keep p q P (fun _ => True))].
    - intros [] s Hs. exact (proj1 Hs).
    - intros s Hs. destruct (H s Hs) as [Hp Hr]. split; [exact Hp|split; [exact Hr|exact Logic.I]].
  Qed.

  (* A write to the split state.  The clauses that read it are to be shown;
     every other clause is the old one. *)
  Lemma At_set_split {p s} x :
    At p s ->
    intact s \/ CutoverComplete (set_split s x) ->                              (* b_data *)
    (forall y, x = Some y -> sp_point y = pt) ->                                (* b_split *)
    (late p -> forall y, x = Some y -> N.ltb (sp_num y) (sp_den y) = false) ->  (* r_late *)
    (pg_phase p = Some PhCutover -> x = None /\ allflags p) ->                  (* r_cut *)
    (x = None -> pg_phase p = None \/ (late p /\ allflags p)) ->                (* r_nosplit *)
    At p (set_split s x).
  Proof.
    intros H Bdata Bsplit Rlate Rcut Rnosplit.
    pose proof (At_rel H) as R.
    apply At_intro; [| exact (At_prog H) |].
    - (* b_data, b_split *) destruct (At_base H). constructor; assumption.
    - (* r_cut, r_nosplit *) pose proof R as []. constructor; try assumption.
      (* r_late: its half on the split state *)
      intros L. split; [exact (proj1 (r_late R L))|exact (Rlate L)].
  Qed.

  Lemma At_set_split_some {p s} x :
    At p s -> ~ late p -> sp_point x = pt -> At p (set_split s (Some x)).
  Proof.
    intros H Hl Hx. apply (At_set_split _ H).
    - (* b_data *) left. exact (early_intact H Hl).
    - (* b_split *) intros y Hy. inversion Hy; subst. exact Hx.
    - (* r_late *) intros L. contradiction.
    - (* r_cut *) intros Hc. exfalso. apply Hl. right. exact Hc.
    - (* r_nosplit *) discriminate.
  Qed.

  Lemma At_complete {p s} : At p s -> late p -> allflags p -> At p (set_split s None).
  Proof.
    intros H Hl Hf. apply (At_set_split _ H).
    - (* b_data *) destruct (b_data (At_base H)) as [D|[_ D]]; [left; exact D|right; split; [reflexivity|exact D]].
    - (* b_split *) discriminate.
    - (* r_late *) discriminate.
    - (* r_cut *) intros _. split; [reflexivity|exact Hf].
    - (* r_nosplit *) intros _. right. split; assumption.
  Qed.

  Definition expN (sd : side) : shardmeta := match sd with SA => expA | SB => expB end.

  Lemma At_set_new {p s} sd : At p s -> late p -> At p (set_shard s (ShNew sd) (Some (expN sd))).
  Proof.
    intros H Hl. pose proof (At_base H) as B.
    assert (Bdata : intact s \/ CutoverComplete (set_shard s (ShNew sd) (Some (expN sd)))).
    { destruct (b_data B) as [D|[Ds [Da [Db Do]]]]; [left; exact D|right].
      destruct sd; repeat split; assumption. }
    (* besides [b_data] only the clauses on the shard written are not the old ones;
       [r_early] no longer applies *)
    apply At_intro.
    - destruct B. destruct sd; constructor; try assumption.
      + (* SA: b_a *) right. reflexivity.
      + (* SB: b_b *) right. reflexivity.
    - destruct sd; exact (At_prog H).
    - destruct (At_rel H). destruct sd; constructor; try assumption.
      + (* SA: r_a *) intros _. reflexivity.
      + (* r_early *) intros Hn. contradiction.
      + (* SB: r_b *) intros _. reflexivity.
      + (* r_early *) intros Hn. contradiction.
  Qed.

  Lemma At_set_old {p s} m :
    At p s -> late p -> same_ranges m -> sh_state m = StPending ->
    At p (set_shard s ShOld (Some m)).
  Proof.
    intros H Hl Hm Hs. pose proof (At_base H) as B.
    assert (Hp : OldIn StPending (set_shard s ShOld (Some m))) by (exists m; split; [reflexivity|exact Hs]).
    apply At_intro; [| exact (At_prog H) |].
    - pose proof B as []. constructor; try assumption.
      + (* b_old *) exists m. split; [reflexivity|]. split; [exact Hm|right; exact Hs].
      + (* b_data *) destruct (b_data B) as [D|[Ds [Da [Db Do]]]]; [left; exact D|].
        right. split; [exact Ds|]. split; [exact Da|]. split; [exact Db|exact Hp].
    - destruct (At_rel H). constructor; try assumption.
      + (* r_old *) intros _. exact Hp.
      + (* r_early *) intros Hn. contradiction.
  Qed.

  Lemma At_put {p s} k rows :
    At p s -> In (k, rows) AO -> At p (set_nobj s (aset nkey_eqb k rows (s_nobj s))).
  Proof.
    intros H Hin. pose proof (At_base H) as B.
    apply At_intro; [| exact (At_prog H) |].
    - pose proof B as []. constructor; try assumption.
      (* b_ncat *)
      intros k' m Hk'. cbn in Hk'. destruct (b_ncat B _ _ Hk') as [rows' [Hin' Hobj]].
      exists rows'. split; [exact Hin'|]. cbn.
      destruct (nkey_eq_dec k' k) as [E|E].
      + subst k'. rewrite (aget_aset_same nkey_eqb nkey_eqb_spec).
        f_equal. exact (all_outs_functional pt chunks chunks_nodup k rows rows' Hin Hin').
      + rewrite (aget_aset_other nkey_eqb nkey_eqb_spec); [exact Hobj|exact E].
    - (* no clause of ProgRel reads s_nobj *) destruct (At_rel H). constructor; assumption.
  Qed.

  Lemma Registered_mono s k m k' :
    Registered s k' -> Registered (set_ncat s (aset nkey_eqb k m (s_ncat s))) k'.
  Proof.
    unfold Registered. cbn. intros H.
    destruct (nkey_eq_dec k' k) as [E|E].
    - subst. rewrite (aget_aset_same nkey_eqb nkey_eqb_spec). discriminate.
    - rewrite (aget_aset_other nkey_eqb nkey_eqb_spec); [exact H|exact E].
  Qed.

  Lemma Registered_new s k m : Registered (set_ncat s (aset nkey_eqb k m (s_ncat s))) k.
  Proof. unfold Registered. cbn. rewrite (aget_aset_same nkey_eqb nkey_eqb_spec). discriminate. Qed.

  Lemma At_register {p s} k m rows :
    At p s -> In (k, rows) AO -> aget nkey_eqb k (s_nobj s) = Some rows ->
    At p (set_ncat s (aset nkey_eqb k m (s_ncat s))).
  Proof.
    intros H Hin Hobj. pose proof (At_base H) as B. pose proof (At_rel H) as R.
    apply At_intro; [| exact (At_prog H) |].
    - pose proof B as []. constructor; try assumption.
      + (* b_ncat *) intros k' m' Hk'. cbn in Hk' |- *.
        destruct (nkey_eq_dec k' k) as [E|E].
        * subst k'. exists rows. split; assumption.
        * rewrite (aget_aset_other nkey_eqb nkey_eqb_spec) in Hk'; [|exact E]. exact (b_ncat B _ _ Hk').
      + (* b_nodup *) cbn. apply (nodup_aset nkey_eqb nkey_eqb_spec). exact (b_nodup B).
    - pose proof R as []. constructor; try assumption.
      + (* r_done *) intros i Hi. destruct (r_done R i Hi) as [rs [Hc Hall]]. exists rs. split; [exact Hc|].
        intros k' r Hk'. apply Registered_mono. exact (Hall _ _ Hk').
      + (* r_late *) intros Hl. destruct (r_late R Hl) as [Hall Hfull]. split; [|exact Hfull].
        intros k' r Hk'. apply Registered_mono. exact (Hall _ _ Hk').
  Qed.

  (* the old shard's catalog and objects may change in any way — but only once
     the cut-over is complete *)
  Lemma At_old_data {p s} co oo :
    At p s -> CutoverComplete s ->
    At p (mkSt (s_prog s) (s_split s) (s_old s) (s_a s) (s_b s) co oo (s_ncat s) (s_nobj s)).
  Proof.
    intros H Hc. apply At_intro; [| exact (At_prog H) |].
    - destruct (At_base H). constructor; try assumption.
      (* b_data: the cut-over is complete *) right. exact Hc.
    - (* no clause of ProgRel reads s_ocat or s_oobj *) destruct (At_rel H). constructor; assumption.
  Qed.

  Lemma cutover_phase_complete {p s} : At p s -> pg_phase p = Some PhCutover -> CutoverComplete s.
  Proof.
    intros H Hc. pose proof (At_rel H) as R.
    destruct (r_cut R Hc) as [Hs [Fa [Fb Fo]]].
    split; [exact Hs|]. split; [exact (r_a R Fa)|]. split; [exact (r_b R Fb)|exact (r_old R Fo)].
  Qed.

  Lemma I_remove {p s} : At p s -> pg_phase p = Some PhCutover -> I (set_prog s None).
  Proof.
    intros H Hc. pose proof (At_rel H) as R. pose proof (At_base H) as B.
    pose proof (cutover_phase_complete H Hc) as [Hs [Ha [Hb [o [Ho Hst]]]]].
    split.
    - split; [apply Base_set_prog; exact B|]. cbn. right. split; [|apply (r_late R); right; exact Hc].
      split; [reflexivity|]. split; [exact Hs|]. split; [|split].
      + exists expA. cbn. repeat split; try reflexivity. exact Ha.
      + exists expB. cbn. repeat split; try reflexivity. exact Hb.
      + destruct (b_old B) as [m [Hm [Hr _]]]. exists o. cbn. rewrite Ho in Hm. inversion Hm; subst m.
        split; [exact Ho|]. split; [exact Hst|exact Hr].
    - intros _. right. cbn. rewrite Ha. discriminate.
  Qed.

  (* Back-fill.  [K] are keys registered before; the writes keep them. *)
  Lemma write_outs_spec p : forall l (K : nkey -> Prop),
    (forall k r, In (k, r) l -> In (k, r) AO) ->
    triple (fun s => At p s /\ forall k, K k -> Registered s k) (write_outs l)
           (fun _ s => At p s /\ forall k, K k \/ In k (map fst l) -> Registered s k).
  Proof.
    induction l as [|[k rows] rest IH]; intros K Hl.
    - apply triple_ret. intros s [H HK]. split; [exact H|]. intros k [Hk|[]]. exact (HK k Hk).
    - cbn [write_outs].
      assert (Hk : In (k, rows) AO) by (apply Hl; left; reflexivity).
      eapply triple_bind.
      { unfold put_obj_new.
        apply request_At with (q := p)
          (Y := fun _ s => (forall k', K k' -> Registered s k') /\ aget nkey_eqb k (s_nobj s) = Some rows).
        - intros s [H _]. exact (At_I H).
        - intros s [H HK]. cbn. split; [exact (At_put _ _ H Hk)|]. split; [exact HK|].
          apply (aget_aset_same nkey_eqb nkey_eqb_spec). }
      intros []. eapply triple_bind.
      { unfold register_chunk.
        apply request_At with (q := p) (Y := fun _ s => forall k', K k' \/ k = k' -> Registered s k').
        - intros s [H _]. exact (At_I H).
        - intros s [H [HK Ho]]. cbn. split; [exact (At_register _ _ _ H Hk Ho)|].
          intros k' [Hk'|<-]; [apply Registered_mono; exact (HK k' Hk')|apply Registered_new]. }
      intros []. eapply triple_post; [|apply (IH (fun k' => K k' \/ k = k'))].
      + intros [] s [H Hr]. split; [exact H|]. intros k' Hk'. apply Hr. clear - Hk'. cbn [map fst In] in Hk'. tauto.
      + intros k' r Hin. apply Hl. right. exact Hin.
  Qed.

  (* a write to the list of chunks done: r_nodup and r_done are to be shown *)
  Lemma ProgRel_set_bf {p s} done' total' :
    ProgRel p s -> NoDup done' -> DoneOK s done' -> ProgRel (set_bf p done' total') s.
  Proof.
    intros [] Hn Hd. constructor; assumption.
  Qed.

  Lemma ProgRel_add_done p s i rows :
    ProgRel p s -> ~ In i (pg_done p) -> In (i, rows) chunks ->
    (forall k r, In (k, r) (outs pt i rows) -> Registered s k) ->
    ProgRel (set_bf p (pg_done p ++ [i]) (pg_total p)) s.
  Proof.
    intros R Hn Hc Hreg. apply (ProgRel_set_bf _ _ R).
    - apply nodup_app_iff. split; [exact (r_nodup R)|split; [constructor; [intros []|constructor]|]].
      intros x Hx [E|[]]. subst. contradiction.
    - intros j Hj. apply in_app_or in Hj. destruct Hj as [Hj|[E|[]]]; [exact (r_done R _ Hj)|].
      subst j. exists rows. split; assumption.
  Qed.

  Lemma oobj_lookup {s i rows} : intact s -> In (i, rows) chunks -> aget N.eqb i (s_oobj s) = Some rows.
  Proof.
    intros [_ Ho] Hin. rewrite Ho. cbn. apply (In_aget_nodup N.eqb Neqb_spec); assumption.
  Qed.

  Definition SplitAt (n d : N) (s : st) : Prop :=
    exists x, s_split s = Some x /\ sp_num x = n /\ sp_den x = d.

  Lemma split_present {p s} : At p s -> pg_phase p = Some PhPrep \/ pg_phase p = Some PhDual ->
    exists x, s_split s = Some x.
  Proof.
    intros H Hph. destruct (s_split s) as [x|] eqn:Ex; [exists x; reflexivity|exfalso].
    destruct (r_nosplit (At_rel H) Ex) as [E|[[L|L] _]]; destruct Hph; congruence.
  Qed.

  Lemma upd_split_spec p n d ph :
    pg_phase p = Some PhPrep \/ pg_phase p = Some PhDual ->
    triple (At p) (upd_split n d ph) (fun _ s => At p s /\ SplitAt n d s).
  Proof.
    intros Hph. assert (Hnl : ~ late p) by (intros [L|L]; destruct Hph; congruence).
    unfold upd_split. apply request_At; [intros s H; exact (At_I H)|].
    intros s H. destruct (split_present H Hph) as [x Ex]. rewrite Ex. cbn. split.
    - apply At_set_split_some; [exact H|exact Hnl|]. cbn. exact (b_split (At_base H) _ Ex).
    - eexists. split; [reflexivity|split; reflexivity].
  Qed.

  (* Loop invariant: the split state shows as many chunks as are recorded.  An
     iteration that does work re-establishes it with its last request. *)
  Lemma bf_loop_spec total : forall ids p,
    pg_phase p = Some PhDual -> pg_point p = pt ->
    (forall i, In i ids -> exists rows, In (i, rows) chunks) ->
    triple (fun s => At p s /\ SplitAt (N.of_nat (length (pg_done p))) total s)
           (bf_loop ids p (N.of_nat (length (pg_done p))) total)
           (fun q s => (At q s /\ SplitAt (N.of_nat (length (pg_done q))) total s) /\
                       forall i, In i (pg_done p) \/ In i ids -> In i (pg_done q)).
  Proof.
    induction ids as [|i rest IH]; intros p Hph Hpt Hids.
    - apply triple_ret. intros s H. split; [exact H|]. intros i [Hi|[]]. exact Hi.
    - cbn [bf_loop]. destruct (memN i (pg_done p)) eqn:Hmem.
      + apply memN_In in Hmem.
        eapply triple_post; [|apply IH; [exact Hph|exact Hpt|intros j Hj; apply Hids; right; exact Hj]].
        intros q s [H Hd]. split; [exact H|].
        intros j [Hj|[E|Hj]]; apply Hd; [left; exact Hj|left; subst j; exact Hmem|right; exact Hj].
      + assert (Hni : ~ In i (pg_done p)) by (apply memN_false; exact Hmem).
        destruct (Hids i (or_introl eq_refl)) as [rows Hc].
        assert (Hdone : pg_done (add_done p i) = pg_done p ++ [i]) by (unfold add_done; rewrite Hmem; reflexivity).
        assert (Hnl : ~ late p) by (intros [L|L]; congruence).
        eapply triple_bind.
        { unfold get_obj_old. apply request_At with (q := p) (Y := fun r _ => r = rows).
          - intros s [H _]. exact (At_I H).
          - intros s [H _]. rewrite (oobj_lookup (early_intact H Hnl) Hc). cbn.
            split; [exact H|reflexivity]. }
        intros r. apply triple_pure. intros ->.
        eapply triple_bind.
        { rewrite Hpt. eapply triple_pre; [|apply (write_outs_spec p (outs pt i rows) (fun _ => False))].
          - intros s H. split; [exact H|]. intros k [].
          - intros k r Hin. apply all_outs_in. exists i, rows. split; assumption. }
        intros [].
        eapply triple_bind.
        { apply (persist_spec p (add_done p i)).
          intros s [H Hr]. split; [exact H|].
          unfold add_done. rewrite Hmem. apply (ProgRel_add_done p s i rows (At_rel H) Hni Hc).
          intros k r Hin. exact (Hr k (or_intror (in_map fst _ (k, r) Hin))). }
        intros [].
        eapply triple_bind;
          [apply (upd_split_spec (add_done p i) (N.of_nat (length (pg_done p)) + 1) total PhBackfill); right; exact Hph|].
        intros [].
        replace (N.of_nat (length (pg_done p)) + 1)%N with (N.of_nat (length (pg_done (add_done p i))))
          by (rewrite Hdone, app_length; cbn; lia).
        eapply triple_post; [|apply IH; [exact Hph|exact Hpt|intros j Hj; apply Hids; right; exact Hj]].
        intros q s [H Hd]. split; [exact H|].
        intros j Hj. apply Hd. rewrite Hdone, in_app_iff. clear - Hj. cbn [In] in *. tauto.
  Qed.

  Definition SplitFull (s : st) : Prop :=
    exists x, s_split s = Some x /\ N.ltb (sp_num x) (sp_den x) = false.

  Lemma AllBackfilled_from_done {q s} :
    ProgRel q s -> (forall i rows, In (i, rows) chunks -> In i (pg_done q)) -> AllBackfilled s.
  Proof.
    intros R H k rows Hin. apply all_outs_in in Hin. destruct Hin as [i [rows' [Hc Ho]]].
    destruct (r_done R i (H _ _ Hc)) as [rows'' [Hc' Hall]].
    assert (rows'' = rows') by (apply (In_aget_nodup N.eqb Neqb_spec _ _ _ chunks_nodup) in Hc, Hc'; congruence).
    subst. exact (Hall _ _ Ho).
  Qed.

  Lemma ocat0_keys : map fst (s_ocat s0) = map fst chunks.
  Proof. cbn. rewrite map_map. apply map_ext. intros [i r]. reflexivity. Qed.

  Lemma in_sorted_ids i : In i (isort (map fst chunks)) <-> exists rows, In (i, rows) chunks.
  Proof. rewrite isort_in. apply in_map_fst. Qed.

  Lemma run_backfill_spec p :
    pg_phase p = Some PhDual ->
    triple (At p) (run_backfill p)
           (fun q s => At q s /\ AllBackfilled s /\ SplitFull s).
  Proof.
    intros Hph. assert (Hnl : ~ late p) by (intros [L|L]; congruence).
    unfold run_backfill.
    eapply triple_bind; [unfold get_chunks_old; apply triple_read; intros s H; exact (At_I H)|].
    intros cs. apply triple_assume with (Phi := cs = s_ocat s0 /\ pg_point p = pt).
    { intros s [H E]. split; [rewrite E; exact (proj1 (early_intact H Hnl))|exact (r_point (At_rel H))]. }
    intros [-> Hpt]. rewrite ocat0_keys.
    set (ids := isort (map fst chunks)).
    assert (Hnd : NoDup ids) by (apply isort_nodup; exact chunks_nodup).
    set (p1 := set_bf p (filter (fun i => memN i ids) (pg_done p)) (N.of_nat (length ids))).
    assert (Hsub : forall i, In i (pg_done p1) -> In i ids).
    { intros i Hi. apply filter_In in Hi. apply memN_In. exact (proj2 Hi). }
    (* however the loop is left: every chunk is recorded and the fraction is full *)
    assert (Hfin : forall q s n d, At q s -> SplitAt n d s -> (d <= n)%N ->
              (forall i, In i ids -> In i (pg_done q)) -> AllBackfilled s /\ SplitFull s).
    { intros q s n d H [x [Ex [Hn Hd]]] Hle Hsup. split.
      - apply (AllBackfilled_from_done (At_rel H)). intros i rows Hc.
        apply Hsup, in_sorted_ids. exists rows. exact Hc.
      - exists x. split; [exact Ex|]. rewrite Hn, Hd. apply N.ltb_ge. exact Hle. }
    eapply triple_bind.
    { apply (persist_spec p p1). intros s [H _]. split; [exact H|].
      apply (ProgRel_set_bf _ _ (At_rel H)); [apply NoDup_filter; exact (r_nodup (At_rel H))|].
      intros i Hi. apply filter_In in Hi. exact (r_done (At_rel H) i (proj1 Hi)). }
    intros []. change (pg_total p1) with (N.of_nat (length ids)).
    destruct (N.eqb (N.of_nat (length ids)) 0) eqn:Et.
    - (* no chunks at all *)
      apply N.eqb_eq in Et.
      assert (Hnil : ids = []) by (destruct ids; [reflexivity|simpl in Et; lia]).
      eapply triple_bind; [apply (upd_split_spec p1); right; exact Hph|].
      intros []. apply triple_ret. intros s [H Hsp]. split; [exact H|].
      apply (Hfin _ _ _ _ H Hsp); [lia|]. rewrite Hnil. intros i [].
    - eapply triple_bind; [apply (upd_split_spec p1); right; exact Hph|].
      intros []. destruct (N.eqb (N.of_nat (length (pg_done p1))) (N.of_nat (length ids))) eqn:Ec.
      + (* everything was back-filled by an earlier attempt *)
        apply N.eqb_eq in Ec.
        apply triple_ret. intros s [H Hsp]. split; [exact H|].
        apply (Hfin _ _ _ _ H Hsp); [lia|].
        apply (NoDup_length_incl (r_nodup (At_rel H))); [lia|exact Hsub].
      + eapply triple_post; [|apply (bf_loop_spec _ ids p1 Hph Hpt); intros i Hi; apply in_sorted_ids; exact Hi].
        intros q s [[H Hsp] Hsup].
        assert (Hincl : incl ids (pg_done q)) by (intros i Hi; apply Hsup; right; exact Hi).
        split; [exact H|].
        apply (Hfin _ _ _ _ H Hsp); [|exact Hincl].
        pose proof (NoDup_incl_length Hnd Hincl). lia.
  Qed.

  (* The three sub-steps of the cut-over, named by the shard each writes: the
     flag that records the step, and what the step brings about. *)
  Definition flag_of (w : shard) (p : progress) : bool :=
    match w with ShOld => pg_old p | ShNew SA => pg_a p | ShNew SB => pg_b p end.
  Definition set_flag (w : shard) (p : progress) : progress :=
    match w with ShOld => set_oldflag p | ShNew SA => set_a p | ShNew SB => set_b p end.
  Definition CutOver (w : shard) (s : st) : Prop :=
    match w with
    | ShOld => OldIn StPending s
    | ShNew sd => get_shard_of s (ShNew sd) = Some (expN sd)
    end.

  Lemma set_flag_id w p : flag_of w p = true -> set_flag w p = p.
  Proof. destruct p, w as [|[|]]; cbn; intros ->; reflexivity. Qed.

  Lemma allflags_set_flag w p : allflags p -> allflags (set_flag w p).
  Proof. intros [Fa [Fb Fo]]. destruct w as [|[|]]; repeat split; assumption. Qed.

  Lemma ProgRel_set_flag {p s} w : ProgRel p s -> CutOver w s -> ProgRel (set_flag w p) s.
  Proof.
    intros R Hw.
    assert (Rcut : pg_phase p = Some PhCutover -> s_split s = None /\ allflags (set_flag w p)).
    { intros Hc. destruct (r_cut R Hc) as [Hs Hf]. split; [exact Hs|exact (allflags_set_flag w p Hf)]. }
    assert (Rnosplit : s_split s = None -> pg_phase p = None \/ (late p /\ allflags (set_flag w p))).
    { intros Hs. destruct (r_nosplit R Hs) as [E|[L Hf]]; [left; exact E|].
      right. split; [exact L|exact (allflags_set_flag w p Hf)]. }
    (* besides these two only the clause on the flag set is not the old one: it is [Hw] *)
    destruct R. destruct w as [|[|]]; constructor; try assumption.
    - (* r_old *) intros _. exact Hw.
    - (* r_a *) intros _. exact Hw.
    - (* r_b *) intros _. exact Hw.
  Qed.

  (* One sub-step of the cut-over: unless its flag is already recorded, do [act],
     which brings about [CutOver w], and record the flag.  [X] is what else the
     caller knows before, [X'] what of it survives [act]. *)
  Lemma flag_step w p (act : M unit) (X X' : st -> Prop) :
    (forall s, X s -> X' s) ->
    (forall s x, X' s -> X' (set_prog s x)) ->
    triple (fun s => At p s /\ X s) act (fun _ s => At p s /\ X' s /\ CutOver w s) ->
    triple (fun s => At p s /\ X s)
           (if flag_of w p then ret p else act ;; persist (set_flag w p) ;; ret (set_flag w p))
           (fun q s => (At (set_flag w p) s /\ X' s) /\ q = set_flag w p).
  Proof.
    intros HX Hst Hact. destruct (flag_of w p) eqn:Eb.
    - rewrite (set_flag_id w p Eb). apply triple_ret.
      intros s [H Hx]. split; [split; [exact H|exact (HX s Hx)]|reflexivity].
    - eapply triple_bind; [exact Hact|]. intros [].
      eapply triple_bind; [apply (persist_keep p (set_flag w p) _ X')|].
      + intros s [H [Hx Hw]]. split; [exact H|].
        split; [exact (ProgRel_set_flag w (At_rel H) Hw)|apply Hst; exact Hx].
      + intros []. apply triple_ret. intros s H. split; [exact H|reflexivity].
  Qed.

  (* the metadata run_cutover asks for *)
  Definition reqN (sd : side) (om : shardmeta) : shardmeta :=
    match sd with
    | SA => mkShard 0 (sh_lo om) pt StActive (sh_min om) pt
    | SB => mkShard 0 pt (sh_hi om) StActive pt (sh_max om)
    end.

  Lemma b_new {s} sd : Base s -> get_shard_of s (ShNew sd) = None \/ get_shard_of s (ShNew sd) = Some (expN sd).
  Proof. intros B. destruct sd; [exact (b_a B)|exact (b_b B)]. Qed.

  Lemma reqN_gen sd om : same_ranges om -> with_gen (reqN sd om) (0 + 1) = expN sd.
  Proof.
    intros [H1 [H2 [H3 H4]]].
    destruct sd; unfold with_gen, reqN, expN, expA, expB; cbn [sh_lo sh_hi sh_state sh_min sh_max sh_gen];
      rewrite ?H1, ?H2, ?H3, ?H4; reflexivity.
  Qed.

  Lemma reqN_same sd om : same_ranges om -> same_shard (expN sd) (reqN sd om) = true.
  Proof.
    intros [H1 [H2 [H3 H4]]].
    destruct sd; unfold same_shard, reqN, expN, expA, expB; cbn [sh_lo sh_hi sh_state sh_min sh_max sh_gen];
      rewrite ?H1, ?H2, ?H3, ?H4, ?Z.eqb_refl; reflexivity.
  Qed.

  Lemma create_new_shard_spec sd p om :
    late p -> same_ranges om ->
    triple (fun s => At p s /\ s_old s = Some om) (create_new_shard sd (reqN sd om))
           (fun _ s => At p s /\ s_old s = Some om /\ get_shard_of s (ShNew sd) = Some (expN sd)).
  Proof.
    intros Hl Hom. unfold create_new_shard.
    eapply triple_bind; [unfold get_shard; apply triple_read; intros s [H _]; exact (At_I H)|].
    intros ex. apply triple_assume with (Phi := ex = None \/ ex = Some (expN sd)).
    { intros s [[H _] E]. rewrite E. apply b_new. exact (At_base H). }
    intros [-> | ->].
    - unfold update_shard.
      apply request_At with (Y := fun _ s => s_old s = Some om /\ get_shard_of s (ShNew sd) = Some (expN sd)).
      + intros s [[H _] _]. exact (At_I H).
      + intros s [[H Ho] E]. rewrite <- E. change (0 =? 0)%N with true. cbn [fst snd].
        rewrite (reqN_gen sd om Hom). split; [exact (At_set_new sd H Hl)|].
        destruct sd; (split; [exact Ho|reflexivity]).
    - (* an interrupted attempt created it already *)
      rewrite (reqN_same sd om Hom). apply triple_ret.
      intros s [[H Ho] E]. split; [exact H|split; [exact Ho|symmetry; exact E]].
  Qed.

  Lemma run_cutover_spec p :
    pg_phase p = Some PhBackfill ->
    triple (At p) (run_cutover p)
           (fun q s => At q s /\ pg_phase q = Some PhBackfill /\ s_split s = None /\ allflags q).
  Proof.
    intros Hph. assert (Hl : late p) by (left; exact Hph). unfold run_cutover.
    eapply triple_bind; [unfold get_split_state; apply triple_read; intros s H; exact (At_I H)|].
    intros [ss|].
    - apply triple_assume with (Phi := N.ltb (sp_num ss) (sp_den ss) = false /\ sp_point ss = pt).
      { intros s [H E]. symmetry in E. split.
        - exact (proj2 (r_late (At_rel H) Hl) _ E).
        - exact (b_split (At_base H) _ E). }
      intros [-> ->].
      eapply triple_bind; [unfold get_shard; apply triple_read; intros s [H _]; exact (At_I H)|].
      intros oom. apply triple_assume with (Phi := exists om, oom = Some om /\ same_ranges om).
      { intros s [[H _] E]. destruct (b_old (At_base H)) as [m [Hm [Hr _]]].
        exists m. split; [rewrite E; exact Hm|exact Hr]. }
      intros [om [-> Hom]].
      eapply triple_pre with (P' := fun s => At p s /\ s_old s = Some om).
      { intros s [[H _] E]. split; [exact H|symmetry; exact E]. }
      eapply triple_bind.
      { apply (flag_step (ShNew SA)) with (X' := fun s => s_old s = Some om).
        - intros s Ho. exact Ho.
        - intros s x Ho. exact Ho.
        - exact (create_new_shard_spec SA p om Hl Hom). }
      intros p1. apply triple_pure. intros ->.
      eapply triple_bind.
      { apply (flag_step (ShNew SB)) with (X' := fun s => s_old s = Some om).
        - intros s Ho. exact Ho.
        - intros s x Ho. exact Ho.
        - exact (create_new_shard_spec SB (set_a p) om Hl Hom). }
      intros p2. apply triple_pure. intros ->.
      eapply triple_bind.
      { apply (flag_step ShOld) with (X' := fun _ => True).
        - intros s _. exact Logic.I.
        - intros s x _. exact Logic.I.
        - unfold update_shard. apply request_At with (Y := fun _ s => True /\ OldIn StPending s).
          + intros s [H _]. exact (At_I H).
          + intros s [H Ho]. cbn. rewrite Ho, N.eqb_refl. cbn. split.
            * apply At_set_old; [exact H|exact Hl|exact Hom|reflexivity].
            * split; [exact Logic.I|]. eexists. split; reflexivity. }
      intros p3. apply triple_pure. intros ->.
      eapply triple_bind.
      { unfold complete_split. apply request_At with (Y := fun _ s => s_split s = None).
        - intros s [H _]. exact (At_I H).
        - intros s [H _]. cbn. split; [|reflexivity].
          (* the three flags of set_oldflag (set_b (set_a p)) are true by computation *)
          apply (At_complete H); [exact Hl|repeat split]. }
      intros []. apply triple_ret. intros s [H Hs].
      split; [exact H|]. split; [exact Hph|]. split; [exact Hs|repeat split].
    - (* the split state is gone: complete_split already took effect *)
      apply triple_assume with (Phi := allflags p).
      { intros s [H E]. symmetry in E. destruct (r_nosplit (At_rel H) E) as [E'|[_ Hf]]; [congruence|exact Hf]. }
      intros Hf. pose proof Hf as [Fa [Fb Fo]]. rewrite Fa, Fb, Fo. cbn.
      apply triple_ret. intros s [H E]. split; [exact H|]. split; [exact Hph|]. split; [symmetry; exact E|exact Hf].
  Qed.

  Lemma cleanup_loop_spec p :
    pg_phase p = Some PhCutover -> forall ids, triple (At p) (cleanup_loop ids) (fun _ => At p).
  Proof.
    intros Hc. induction ids as [|i rest IH]; [apply triple_ret; intros s H; exact H|].
    cbn [cleanup_loop].
    (* both requests write the old shard's data only, after the cut-over *)
    eapply triple_bind.
    { unfold del_obj_old. apply triple_ignored; [intros s H; exact (At_I H)|].
      intros s H. exact (At_old_data _ _ H (cutover_phase_complete H Hc)). }
    intros []. eapply triple_bind.
    { unfold delete_chunk_old. apply triple_ignored; [intros s H; exact (At_I H)|].
      intros s H. exact (At_old_data _ _ H (cutover_phase_complete H Hc)). }
    intros []. exact IH.
  Qed.

  (* how every complete run ends *)
  Definition Ended (s : st) : Prop := I s /\ s_prog s = None.

  (* A write to the phase.  The clauses that read it are to be shown; every
     other clause is the old one. *)
  Lemma ProgRel_set_phase {q s} ph :
    ProgRel q s ->
    ph <> PhCleanup ->                                                            (* r_nocleanup *)
    (late (set_phase q ph) -> AllBackfilled s /\
       forall x, s_split s = Some x -> N.ltb (sp_num x) (sp_den x) = false) ->      (* r_late *)
    (ph = PhCutover -> s_split s = None /\ allflags q) ->                         (* r_cut *)
    (s_split s = None -> late (set_phase q ph) /\ allflags q) ->                  (* r_nosplit *)
    (~ late (set_phase q ph) -> s_a s = None /\ s_b s = None /\ OldIn StActive s) -> (* r_early *)
    ProgRel (set_phase q ph) s.
  Proof.
    intros [] Rnocleanup Rlate Rcut Rnosplit Rearly. constructor; try assumption.
    - (* r_nocleanup *) intros E. cbn in E. congruence.
    - (* r_cut *) intros E. cbn in E. apply Rcut. congruence.
    - (* r_nosplit *) intros Hs. right. exact (Rnosplit Hs).
  Qed.

  Lemma ProgRel_to_cutover {q s} :
    ProgRel q s -> late q -> s_split s = None -> allflags q -> ProgRel (set_phase q PhCutover) s.
  Proof.
    intros R Hl Hs Hf. apply (ProgRel_set_phase _ R).
    - (* r_nocleanup *) discriminate.
    - (* r_late *) intros _. exact (r_late R Hl).
    - (* r_cut *) intros _. split; assumption.
    - (* r_nosplit *) intros _. split; [right; reflexivity|exact Hf].
    - (* r_early *) intros Hn. exfalso. apply Hn. right. reflexivity.
  Qed.

  Lemma ProgRel_to_backfill {q s} :
    ProgRel q s -> AllBackfilled s -> SplitFull s -> ProgRel (set_phase q PhBackfill) s.
  Proof.
    intros R Hall [x [Ex Hx]]. apply (ProgRel_set_phase _ R).
    - (* r_nocleanup *) discriminate.
    - (* r_late *) intros _. split; [exact Hall|]. intros y Ey. rewrite Ex in Ey. inversion Ey; subst. exact Hx.
    - (* r_cut *) discriminate.
    - (* r_nosplit *) intros Hs. congruence.
    - (* r_early *) intros Hn. exfalso. apply Hn. left. reflexivity.
  Qed.

  Lemma ProgRel_to_early {q s} ph :
    ProgRel q s -> ~ late q -> ph = PhPrep \/ ph = PhDual -> s_split s <> None ->
    ProgRel (set_phase q ph) s.
  Proof.
    intros R Hnl Hph Hs.
    assert (Hnl' : ~ late (set_phase q ph)) by (intros [L|L]; cbn in L; destruct Hph; congruence).
    apply (ProgRel_set_phase _ R).
    - (* r_nocleanup *) destruct Hph; subst; discriminate.
    - (* r_late *) intros L. contradiction.
    - (* r_cut *) destruct Hph; subst; discriminate.
    - (* r_nosplit *) intros E. contradiction.
    - (* r_early *) intros _. exact (r_early R Hnl).
  Qed.

  (* start_split / update_split_progress, then the phase is recorded *)
  Lemma early_step {B} p ph (act : M unit) (k : M B) R :
    ~ late p -> ph = PhPrep \/ ph = PhDual ->
    triple (At p) act (fun _ s => At p s /\ s_split s <> None) ->
    triple (At (set_phase p ph)) k R ->
    triple (At p) (act ;; persist (set_phase p ph) ;; k) R.
  Proof.
    intros Hnl Hph Hact Hk.
    eapply triple_bind; [exact Hact|]. intros [].
    eapply triple_bind; [apply (persist_spec p)|intros []; exact Hk].
    intros s [H Hs]. split; [exact H|exact (ProgRel_to_early ph (At_rel H) Hnl Hph Hs)].
  Qed.

  Definition step_cutover (p : progress) : M progress :=
    q <- run_cutover p ;; persist (set_phase q PhCutover) ;; ret (set_phase q PhCutover).
  Definition step_backfill (p : progress) : M progress :=
    q <- run_backfill p ;; persist (set_phase q PhBackfill) ;; ret (set_phase q PhBackfill).
  Definition step_dual (p : progress) : M progress :=
    upd_split 0 1 PhDual ;; persist (set_phase p PhDual) ;; ret (set_phase p PhDual).

  (* a phase runs, then it is recorded as completed *)
  Lemma phase_step p ph (run : M progress) (G : progress -> st -> Prop) :
    triple (At p) run (fun q s => At q s /\ G q s) ->
    (forall q s, At q s -> G q s -> ProgRel (set_phase q ph) s) ->
    triple (At p) (q <- run ;; persist (set_phase q ph) ;; ret (set_phase q ph))
           (fun q s => At q s /\ pg_phase q = Some ph).
  Proof.
    intros Hrun Hrel. eapply triple_bind; [exact Hrun|]. intros q.
    eapply triple_bind; [apply (persist_spec q)|].
    - intros s [H HG]. split; [exact H|exact (Hrel q s H HG)].
    - intros []. apply triple_ret. intros s H. split; [exact H|reflexivity].
  Qed.

  (* run_from_phase, one equation per starting phase *)
  Lemma rfp_dual p : run_from_phase p PhDual = (p1 <- step_dual p ;; run_from_phase p1 PhBackfill).
  Proof. reflexivity. Qed.
  Lemma rfp_backfill p : run_from_phase p PhBackfill = (p1 <- step_backfill p ;; run_from_phase p1 PhCutover).
  Proof. reflexivity. Qed.
  Lemma rfp_cutover p : run_from_phase p PhCutover = (p1 <- step_cutover p ;; run_from_phase p1 PhCleanup).
  Proof. reflexivity. Qed.
  Lemma rfp_cleanup p : run_from_phase p PhCleanup = (cleanup ;; remove_progress).
  Proof. reflexivity. Qed.

  Lemma from_cleanup p :
    pg_phase p = Some PhCutover -> triple (At p) (run_from_phase p PhCleanup) (fun _ => Ended).
  Proof.
    intros Hc. rewrite rfp_cleanup. eapply triple_bind.
    { unfold cleanup.
      eapply triple_bind; [unfold get_chunks_old; apply triple_read; intros s H; exact (At_I H)|].
      intros cs. eapply triple_pre; [|exact (cleanup_loop_spec p Hc (map fst cs))].
      intros s H. exact (proj1 H). }
    intros []. unfold remove_progress. apply triple_request.
    - intros s H. exact (At_I H).
    - intros s H. exact (I_remove H Hc).
    - intros s H. split; [exact (I_remove H Hc)|reflexivity].
  Qed.

  Lemma from_cutover p :
    pg_phase p = Some PhBackfill -> triple (At p) (run_from_phase p PhCutover) (fun _ => Ended).
  Proof.
    intros Hph. rewrite rfp_cutover. eapply triple_bind.
    { apply phase_step with (1 := run_cutover_spec p Hph).
      intros q s H [Hq [Hs Hf]]. exact (ProgRel_to_cutover (At_rel H) (or_introl Hq) Hs Hf). }
    intros p1. apply triple_pure, from_cleanup.
  Qed.

  Lemma from_backfill p :
    pg_phase p = Some PhDual -> triple (At p) (run_from_phase p PhBackfill) (fun _ => Ended).
  Proof.
    intros Hph. rewrite rfp_backfill. eapply triple_bind.
    { apply phase_step with (1 := run_backfill_spec p Hph).
      intros q s H [Hall Hf]. exact (ProgRel_to_backfill (At_rel H) Hall Hf). }
    intros p1. apply triple_pure, from_cutover.
  Qed.

  Lemma from_dual p :
    pg_phase p = Some PhPrep -> triple (At p) (run_from_phase p PhDual) (fun _ => Ended).
  Proof.
    intros Hph. rewrite rfp_dual.
    apply triple_bind with (Q := fun q s => At q s /\ pg_phase q = Some PhDual).
    { apply early_step.
      - intros [L|L]; congruence.
      - right. reflexivity.
      - eapply triple_post; [|apply upd_split_spec; left; exact Hph].
        intros [] s [H [x [Ex _]]]. split; [exact H|congruence].
      - apply triple_ret. intros s H. split; [exact H|reflexivity]. }
    intros p1. apply triple_pure, from_backfill.
  Qed.

  (* a run that finds no phase recorded begins with start_split and records Preparation *)
  Lemma prep_steps {B} p (k : M B) (R : B -> st -> Prop) :
    pg_phase p = None ->
    triple (At (set_phase p PhPrep)) k R ->
    triple (At p) (start_split (pg_point p) ;; persist (set_phase p PhPrep) ;; k) R.
  Proof.
    intros Hph. assert (Hnl : ~ late p) by (intros [L|L]; congruence).
    apply early_step; [exact Hnl|left; reflexivity|].
    unfold start_split. apply request_At; [intros s H; exact (At_I H)|].
    intros s H. cbn. split; [|discriminate].
    apply At_set_split_some; [exact H|exact Hnl|]. cbn. exact (r_point (At_rel H)).
  Qed.

  Lemma then_true (m : M unit) P :
    triple P m (fun _ => Ended) -> triple P (m ;; ret true) (fun _ => Ended).
  Proof.
    intros H. eapply triple_bind; [exact H|]. intros []. apply triple_ret. intros s Hs. exact Hs.
  Qed.

  Lemma resume_spec : triple I resume (fun _ => Ended).
  Proof.
    unfold resume.
    eapply triple_bind; [unfold load_progress; apply triple_read; intros s H; exact H|].
    intros [p|].
    - eapply triple_pre with (P' := At p); [intros s [H E]; split; [exact H|symmetry; exact E]|].
      apply triple_assume with (Phi := pg_phase p <> Some PhCleanup).
      { intros s H. exact (r_nocleanup (At_rel H)). }
      intros Hnc. unfold next_phase.
      destruct (pg_phase p) as [[| | | |]|] eqn:Eph.
      + apply then_true, from_dual, Eph.
      + apply then_true, from_backfill, Eph.
      + apply then_true, from_cutover, Eph.
      + apply then_true, from_cleanup, Eph.
      + congruence.
      + apply prep_steps; [exact Eph|]. apply then_true, from_dual. reflexivity.
    - apply triple_ret. intros s [H E]. split; [exact H|symmetry; exact E].
  Qed.

  Definition prog0 : progress := mkProg None false false false [] 0 pt.

  Lemma Base_s0 : Base s0.
  Proof.
    constructor.
    - (* b_old *) exists arg. split; [reflexivity|]. split; [repeat split|left; exact arg_active].
    - (* b_a *) left. reflexivity.
    - (* b_b *) left. reflexivity.
    - (* b_ncat *) intros k m H. cbn in H. discriminate.
    - (* b_nodup *) cbn. constructor.
    - (* b_data *) left. split; reflexivity.
    - (* b_split *) intros x H. cbn in H. discriminate.
  Qed.

  Lemma ProgRel_prog0 : ProgRel prog0 s0.
  Proof.
    (* no flag and no phase is recorded: that settles r_a, r_b, r_old, r_nocleanup and r_cut *)
    constructor; cbn; try discriminate.
    - (* r_point *) reflexivity.
    - (* r_nodup *) constructor.
    - (* r_done *) intros i [].
    - (* r_late *) intros [L|L]; cbn in L; discriminate.
    - (* r_nosplit *) intros _. left. reflexivity.
    - (* r_early *) intros _. split; [reflexivity|]. split; [reflexivity|]. exists arg. split; [reflexivity|exact arg_active].
  Qed.

  Lemma At_prog0 : At prog0 (set_prog s0 (Some prog0)).
  Proof.
    apply At_intro; [apply Base_set_prog; exact Base_s0|reflexivity|apply ProgRel_set_prog; exact ProgRel_prog0].
  Qed.

  Lemma Inv_s0 : Inv s0.
  Proof. split; [exact Base_s0|]. cbn. left. reflexivity. Qed.

  (* [execute arg] is [persist prog0 ;; execute_tail], by computation *)
  Definition execute_tail : M unit :=
    start_split pt ;; persist (set_phase prog0 PhPrep) ;; run_from_phase (set_phase prog0 PhPrep) PhDual.

  Lemma execute_tail_spec : triple (At prog0) execute_tail (fun _ => Ended).
  Proof. apply (prep_steps prog0); [reflexivity|]. apply from_dual. reflexivity. Qed.

  (* the plan stops request 0 before it takes effect (fails or crashes before) *)
  Definition first_blocked (pl : list (nat * fmode)) : Prop :=
    plan_get 0 pl = Some FB \/ plan_get 0 pl = Some CB.

  Lemma run_execute_fst s pl : fst (run_execute arg s pl) = fst (execute arg (fresh s pl)).
  Proof. unfold run_execute. destruct (execute arg (fresh s pl)) as [w [u|e|]]; reflexivity. Qed.

  (* The initial run from the untouched state: either its very first request
     was stopped before it took effect (nothing happened), or the run obeys
     the same contract as everything else.  With [strict = true], [I] does not
     hold of [s0] (it is not [Started]), so the first request, the PUT of
     [prog0], is taken apart by hand; the rest runs under the logic. *)
  Lemma after_execute pl :
    let s := w_st (fst (run_execute arg s0 pl)) in
    (first_blocked pl /\ s = s0) \/ (~ first_blocked pl /\ I s).
  Proof.
    cbv zeta. rewrite run_execute_fst. unfold first_blocked.
    change (execute arg) with (persist prog0 ;; execute_tail).
    unfold bind, persist, request. cbn [fresh w_n w_plan w_st w_trace].
    destruct (plan_get 0 pl) as [[| | |]|]; cbn [fst snd w_st].
    - left. split; [left; reflexivity|reflexivity].
    - right. split; [intros [H|H]; discriminate|exact (At_I At_prog0)].
    - left. split; [right; reflexivity|reflexivity].
    - right. split; [intros [H|H]; discriminate|exact (At_I At_prog0)].
    - right. split; [intros [H|H]; discriminate|].
      set (w := mkW _ _ _ _). pose proof (execute_tail_spec w At_prog0) as [_ H].
      destruct (execute_tail w) as [w' [u|e|]]; cbn [fst snd] in *; exact (proj1 H).
  Qed.

  Lemma run_resume_fst s pl : fst (run_resume s pl) = fst (resume (fresh s pl)).
  Proof. unfold run_resume. destruct (resume (fresh s pl)) as [w [[|]|e|]]; reflexivity. Qed.

  Lemma run_resume_I s pl : I s -> I (w_st (fst (run_resume s pl))).
  Proof.
    intros H. rewrite run_resume_fst.
    pose proof (resume_spec (fresh s pl) H) as [_ Hr].
    destruct (snd (resume (fresh s pl))); exact (proj1 Hr).
  Qed.

  Lemma resumes_state_I plans : forall s, I s -> I (resumes_state s plans).
  Proof.
    induction plans as [|pl r IH]; intros s H; [exact H|].
    cbn [resumes_state fold_left]. apply IH. apply run_resume_I. exact H.
  Qed.

  Definition old_rows : list row := flat_map snd chunks.
  Definition conserve (s : st) : Prop :=
    Permutation (rows_of SA s) (filter (is_lower pt) old_rows) /\
    Permutation (rows_of SB s) (filter (is_upper pt) old_rows).

  Lemma Base_conserve s : Base s -> AllBackfilled s -> conserve s.
  Proof.
    intros B Hall.
    pose proof (fun sd => rows_of_conserve pt chunks chunks_nodup s sd (b_nodup B) (b_ncat B) Hall) as C.
    exact (conj (C SA) (C SB)).
  Qed.

  (* without a progress file the split is over, or never began *)
  Lemma Inv_no_progress s : Inv s -> s_prog s = None -> (FinalSt s /\ conserve s) \/ s = s0.
  Proof.
    intros [B Hm] E. rewrite E in Hm. destruct Hm as [E0|[HF HA]]; [right; exact E0|left].
    split; [exact HF|exact (Base_conserve s B HA)].
  Qed.

  (* a resume that returns, under whatever plan, has finished the split *)
  Lemma resume_ok s pl w b :
    I s -> resume (fresh s pl) = (w, ROk b) ->
    I (w_st w) /\ ((FinalSt (w_st w) /\ conserve (w_st w)) \/ w_st w = s0).
  Proof.
    intros H E. pose proof (resume_spec (fresh s pl) H) as [_ Hr]. rewrite E in Hr.
    destruct Hr as [HI Hp]. split; [exact HI|exact (Inv_no_progress _ (proj1 HI) Hp)].
  Qed.

  (* and a fault-free resume does return *)
  Lemma resume_fault_free s :
    I s ->
    exists w b, resume (fresh s []) = (w, ROk b) /\ I (w_st w) /\
                ((FinalSt (w_st w) /\ conserve (w_st w)) \/ w_st w = s0).
  Proof.
    intros H. pose proof (resume_spec (fresh s []) H) as [_ Hr].
    destruct (resume (fresh s [])) as [w [b|e|]] eqn:E; cbn [fst snd fresh w_plan] in Hr.
    - exists w, b. split; [reflexivity|exact (resume_ok s [] w b H E)].
    - destruct Hr as [_ [_ Hne]]. congruence.
    - destruct Hr as [_ Hne]. congruence.
  Qed.

  Lemma not_started_s0 : ~ Started s0.
  Proof. intros [H|H]; apply H; reflexivity. Qed.
End SplitProofs.

Definition wf_input (arg : shardmeta) (chunks : list (N * list row)) : Prop :=
  NoDup (map fst chunks) /\ sh_state arg = StActive.

Lemma Inv_I_false arg chunks s : Inv arg chunks s -> I arg chunks false s.
Proof. intros H. split; [exact H|discriminate]. Qed.

(* Every state reachable by a script — the initial run and any number of
   resumes, each under an arbitrary fault plan — satisfies the invariant. *)
Theorem reachable_inv arg chunks script :
  wf_input arg chunks -> Inv arg chunks (script_state arg (s0 arg chunks) script).
Proof.
  intros [Hnd Hact]. destruct script as [|pl r]; cbn [script_state].
  - apply Inv_s0; assumption.
  - apply (resumes_state_I arg chunks Hnd false).
    destruct (after_execute arg chunks Hnd Hact false pl) as [[_ Hs]|[_ HI]]; [|exact HI].
    rewrite Hs. apply Inv_I_false. apply Inv_s0; assumption.
Qed.

Theorem reachable_started arg chunks pl r :
  wf_input arg chunks -> ~ first_blocked pl ->
  I arg chunks true (script_state arg (s0 arg chunks) (pl :: r)).
Proof.
  intros [Hnd Hact] Hnb. cbn [script_state].
  apply resumes_state_I; [exact Hnd|].
  destruct (after_execute arg chunks Hnd Hact true pl) as [[Hb _]|[_ HI]]; [contradiction|exact HI].
Qed.

(* a resume that finds no progress file changes nothing, whatever the plan *)
Lemma resume_nothing s pl : s_prog s = None -> w_st (fst (run_resume s pl)) = s.
Proof.
  intros Hp. rewrite run_resume_fst. unfold resume, bind, load_progress, request.
  cbn [fresh w_n w_plan w_st w_trace].
  destruct (plan_get 0 pl) as [[| | |]|]; cbn [fst snd w_st]; try reflexivity.
  rewrite Hp. reflexivity.
Qed.

Theorem never_began arg chunks pl r :
  wf_input arg chunks -> first_blocked pl ->
  script_state arg (s0 arg chunks) (pl :: r) = s0 arg chunks.
Proof.
  intros [Hnd Hact] Hb. cbn [script_state].
  destruct (after_execute arg chunks Hnd Hact false pl) as [[_ Hs]|[Hnb _]]; [|contradiction].
  rewrite Hs. clear Hs. induction r as [|pl' r IH]; [reflexivity|].
  cbn [resumes_state fold_left]. rewrite resume_nothing; [exact IH|reflexivity].
Qed.

(* Resumable: a fault-free resume returns, and ends in the final state with
   the data conserved — or finds the world untouched (the split never began). *)
Definition Resumable (arg : shardmeta) (chunks : list (N * list row)) (s : st) : Prop :=
  exists w b, resume (fresh s []) = (w, ROk b) /\
    ((FinalSt arg (w_st w) /\ conserve arg chunks (w_st w)) \/ w_st w = s0 arg chunks).

Theorem Inv_Resumable arg chunks s :
  wf_input arg chunks -> Inv arg chunks s -> Resumable arg chunks s.
Proof.
  intros [Hnd Hact] Hinv.
  destruct (resume_fault_free arg chunks Hnd false s (Inv_I_false _ _ _ Hinv)) as [w [b [E [_ H]]]].
  exists w, b. split; [exact E|exact H].
Qed.

(* a resume, failing or not, under any plan, preserves Inv, hence Resumable-ness *)
Theorem resume_preserves_inv arg chunks s pl :
  wf_input arg chunks -> Inv arg chunks s -> Inv arg chunks (w_st (fst (run_resume s pl))).
Proof.
  intros [Hnd Hact] H. apply (run_resume_I arg chunks Hnd false). apply Inv_I_false. exact H.
Qed.

(* Main theorem: for all fault scripts (any number of runs, any faults in each)
   a single further fault-free resume reaches Final /\ conserve; the only
   other possibility is that the split never began. *)
Theorem resumable_after_any_script arg chunks script :
  wf_input arg chunks -> Resumable arg chunks (script_state arg (s0 arg chunks) script).
Proof. intros Hwf. apply Inv_Resumable; [exact Hwf|apply reachable_inv; exact Hwf]. Qed.

Theorem final_after_any_started_script arg chunks pl r :
  wf_input arg chunks -> ~ first_blocked pl ->
  exists w b, resume (fresh (script_state arg (s0 arg chunks) (pl :: r)) []) = (w, ROk b) /\
              FinalSt arg (w_st w) /\ conserve arg chunks (w_st w).
Proof.
  intros Hwf Hnb. pose proof (reachable_started arg chunks pl r Hwf Hnb) as HI.
  destruct (resume_fault_free arg chunks (proj1 Hwf) true _ HI) as [w [b [E [HI' [H|H]]]]].
  - exists w, b. split; [exact E|exact H].
  - (* the untouched world is excluded: the run has started *)
    exfalso. apply (not_started_s0 arg chunks). rewrite <- H. exact (proj2 HI' eq_refl).
Qed.

(* the same as the state after n fault-free resumes: n = 1 *)
Theorem exists_n_resumes_reach_final arg chunks pl r :
  wf_input arg chunks -> ~ first_blocked pl ->
  exists n, let s := resumes_state (script_state arg (s0 arg chunks) (pl :: r)) (repeat [] n) in
            FinalSt arg s /\ conserve arg chunks s.
Proof.
  intros Hwf Hnb. exists 1%nat. cbn [repeat resumes_state fold_left].
  destruct (final_after_any_started_script arg chunks pl r Hwf Hnb) as [w [b [E [HF HC]]]].
  rewrite run_resume_fst, E. cbn [fst]. split; assumption.
Qed.

(* No old-shard data is removed before the cut-over has completed: in every
   reachable state (every prefix of every run is the end of some script, since
   a crash may follow any request) the old shard's catalog entries and objects
   are exactly the initial ones unless the cut-over is complete. *)
Theorem no_old_data_removed_before_cutover arg chunks script :
  wf_input arg chunks ->
  let s := script_state arg (s0 arg chunks) script in
  intact arg chunks s \/ CutoverComplete arg s.
Proof. intros Hwf. cbv zeta. destruct (reachable_inv arg chunks script Hwf) as [B _]. exact (b_data _ _ _ B). Qed.

(* the final state is stable: a further resume finds nothing to do *)
Theorem final_stable arg s pl : FinalSt arg s -> w_st (fst (run_resume s pl)) = s.
Proof. intros [Hp _]. apply resume_nothing. exact Hp. Qed.

Lemma row_eq_dec (a b : row) : {a = b} + {a <> b}.
Proof. decide equality; apply Z.eq_dec. Qed.

Lemma count_filter_split (f : row -> bool) l x :
  (count_occ row_eq_dec (filter f l) x + count_occ row_eq_dec (filter (fun r => negb (f r)) l) x
   = count_occ row_eq_dec l x)%nat.
Proof.
  induction l as [|y r IH]; [reflexivity|].
  cbn [filter]. destruct (f y); cbn [negb count_occ]; destruct (row_eq_dec y x); lia.
Qed.

(* conservation, spelled out: every old row is served by the new shards
   exactly as often as the old shard held it, and only on its side *)
Theorem conserve_exactly_once arg chunks s :
  conserve arg chunks s ->
  forall r,
    (count_occ row_eq_dec (rows_of SA s) r + count_occ row_eq_dec (rows_of SB s) r
     = count_occ row_eq_dec (old_rows chunks) r)%nat /\
    (In r (rows_of SA s) -> row_ts r < pt arg) /\
    (In r (rows_of SB s) -> pt arg <= row_ts r).
Proof.
  intros [HA HB] r. split; [|split].
  - rewrite (proj1 (Permutation_count_occ row_eq_dec _ _) HA r), (proj1 (Permutation_count_occ row_eq_dec _ _) HB r).
    apply count_filter_split.
  - intros Hin. apply (Permutation_in _ HA) in Hin. apply filter_In in Hin. destruct Hin as [_ H].
    unfold is_lower in H. apply Z.ltb_lt. exact H.
  - intros Hin. apply (Permutation_in _ HB) in Hin. apply filter_In in Hin. destruct Hin as [_ H].
    unfold is_upper, is_lower in H. apply negb_true_iff in H. apply Z.ltb_ge. exact H.
Qed.

(* A concrete split: the theorems' hypothesis can be met ([ex_wf]), and what the
   model computes on it. *)
Definition ex_arg : shardmeta := mkShard 1 0 1000 StActive 0 6000000000000.
Definition ex_chunks : list (N * list row) :=
  [(0%N, [(1, 2999999999999); (2, 3000000000000); (3, 3000000000001)]);
   (1%N, [(5, 10)]);
   (4%N, [(7, 3000000000000); (8, 3000000000000)])].

Example ex_wf : wf_input ex_arg ex_chunks.
Proof.
  split; [|reflexivity]. cbn. repeat constructor; cbn; intuition discriminate.
Qed.

Example ex_split_point : pt ex_arg = 3000000000000.
Proof. vm_compute. reflexivity. Qed.

Example ex_fault_free_run :
  map snd (run_script ex_arg (s0 ex_arg ex_chunks) [[]; []]) = [KOk; KFalse].
Proof. vm_compute. reflexivity. Qed.

Definition shard_is (x : option shardmeta) (e : shardmeta) : bool :=
  match x with Some m => same_shard m e && N.eqb (sh_gen m) (sh_gen e) | None => false end.

Definition final_b (arg : shardmeta) (s : st) : bool :=
  match s_prog s, s_split s, s_old s with
  | None, None, Some o =>
      shard_is (s_a s) (expA arg) && shard_is (s_b s) (expB arg) && sstate_eqb (sh_state o) StPending
  | _, _, _ => false
  end.

(* 2 and 4: how many rows of [ex_chunks] lie below / at or above [pt ex_arg] *)
Definition rows_b (s : st) : bool :=
  N.eqb (N.of_nat (length (rows_of SA s))) 2 && N.eqb (N.of_nat (length (rows_of SB s))) 4.

(* The initial run meets the single fault [(k, m)], then one fault-free resume:
   the resume returns, and the state is final with the rows conserved — unless
   the fault stopped request 0 before its effect, when nothing began and the
   resume finds nothing to do. *)
Definition ex_check (k : nat) (m : fmode) : bool :=
  match run_script ex_arg (s0 ex_arg ex_chunks) [[(k, m)]; []] with
  | [_; (w, kind)] =>
      match kind with KTrue | KFalse => true | _ => false end
      && (final_b ex_arg (w_st w) && rows_b (w_st w)
          || (Nat.eqb k 0 && match m with FB | CB => true | _ => false end))
  | _ => false
  end.

Lemma final_b_true arg chunks s : Inv arg chunks s -> FinalSt arg s -> final_b arg s = true.
Proof.
  intros [B _] [Hp [Hs [[a [Ha _]] [[b [Hb _]] [o [Ho [Hst _]]]]]]].
  unfold final_b. rewrite Hp, Hs, Ho, Hst.
  destruct (b_a _ _ _ B) as [E|E]; [congruence|]. destruct (b_b _ _ _ B) as [E'|E']; [congruence|].
  rewrite E, E'. unfold shard_is, same_shard. rewrite !Z.eqb_refl, !N.eqb_refl. reflexivity.
Qed.

Lemma ex_rows_b s : conserve ex_arg ex_chunks s -> rows_b s = true.
Proof.
  intros [HA HB]. unfold rows_b. rewrite (Permutation_length HA), (Permutation_length HB). reflexivity.
Qed.

(* Whatever single fault [(k, m)] the initial run meets: the state it leaves
   satisfies the invariant (or is untouched), so the fault-free resume returns
   and ends in the final state (or finds nothing to resume). *)
Lemma ex_check_true k m : ex_check k m = true.
Proof.
  destruct ex_wf as [Hnd Hact]. unfold ex_check. cbn [run_script run_resumes].
  set (s := w_st (fst (run_execute ex_arg (s0 ex_arg ex_chunks) [(k, m)]))).
  set (blocked := Nat.eqb k 0 && match m with FB | CB => true | _ => false end).
  assert (H : exists strict, I ex_arg ex_chunks strict s /\ (strict = false -> blocked = true)).
  { destruct (after_execute ex_arg ex_chunks Hnd Hact true [(k, m)]) as [[Hb Hs]|[_ HI]].
    - exists false. fold s in Hs. rewrite Hs. split; [apply Inv_I_false, Inv_s0; assumption|].
      intros _. unfold first_blocked in Hb. cbn [plan_get] in Hb. unfold blocked.
      destruct (Nat.eqb k 0); [|destruct Hb; discriminate]. destruct Hb as [Hb|Hb]; inversion Hb; reflexivity.
    - exists true. split; [exact HI|discriminate]. }
  destruct H as [strict [HI Hblocked]].
  destruct (resume_fault_free ex_arg ex_chunks Hnd strict s HI) as [w [b [E [HI' Hw]]]].
  assert (Hfin : final_b ex_arg (w_st w) && rows_b (w_st w) || blocked = true).
  { destruct Hw as [[HF HC]|Hs0].
    - rewrite (final_b_true ex_arg ex_chunks _ (proj1 HI') HF), (ex_rows_b _ HC). reflexivity.
    - destruct strict.
      + exfalso. apply (not_started_s0 ex_arg ex_chunks). rewrite <- Hs0. exact (proj2 HI' eq_refl).
      + rewrite (Hblocked eq_refl). apply orb_true_r. }
  unfold run_resume. rewrite E. destruct b; exact Hfin.
Qed.

(* Every request of the run (46 of them, [ex_request_count]; a fault at a later
   index is never met) x every fault mode, then ONE fault-free resume.  This
   is [ex_check_true], an instance of the theorems above, not a computed
   sweep.  It includes the three positions that stranded the split before the
   repairs (crash after the first progress PUT; new shard created but not
   recorded; complete_split done but the phase not recorded). *)
Example ex_every_single_fault_then_resume :
  forallb (fun k => forallb (ex_check k) [FB; FA; CB; CA]) (seq 0 50) = true.
Proof.
  apply forallb_forall. intros k _. apply forallb_forall. intros m _. apply ex_check_true.
Qed.

Example ex_request_count :
  map (fun x => w_n (fst x)) (run_script ex_arg (s0 ex_arg ex_chunks) [[]]) = [46%nat].
Proof. vm_compute. reflexivity. Qed.
