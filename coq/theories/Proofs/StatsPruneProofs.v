(* Proofs/StatsPruneProofs.v — C12: soundness of statistics-based pruning.
   A column node `x o v` is pruned on one test of a statistic against the
   literal v.  A row value x on the inner side of that statistic then fails
   `o v` as well: each order the engine compares in (integers, byte strings,
   f64) is a total preorder, and rounding an integer to f64 is monotone.  The
   exception is the known class [known_mixed]: the code compares an integer
   literal with an integer statistic exactly where the engine compares in f64,
   or the members of a BETWEEN / IN group belong to different type classes and
   the engine compares them in a type the model leaves open. *)
From Coq Require Import List ZArith NArith Bool Reals Lra Lia.
From Flocq Require Import Core IEEE754.BinarySingleNaN IEEE754.Binary IEEE754.Bits.
From CS Require Import Base.Prelude Base.AList Base.ListFacts Base.F64Order Model.StatsPrune.
Open Scope Z_scope.

(* keeps cbn from unfolding the Flocq terms *)
Local Opaque Z2F b64_compare.

Lemma tv_and_TT : forall a b, tv_and a b = TT -> a = TT /\ b = TT.
Proof. intros [] [] H; try discriminate; auto. Qed.
Lemma tv_or_TT : forall a b, tv_or a b = TT -> a = TT \/ b = TT.
Proof. intros [] [] H; try discriminate; auto. Qed.

(* A comparison function that is a total preorder.  Pruning relies on three of
   them: integers, byte strings, and the reals (for the floats that are no
   NaN, through the embedding fE). *)
Definition preorder {T} (cmp : T -> T -> comparison) : Prop :=
  (forall a b, cmp b a = CompOpp (cmp a b)) /\
  (forall a b c, cmp a b <> Gt -> cmp b c <> Gt -> cmp a c <> Gt).

(* the order Lt < Eq < Gt on outcomes *)
Definition comp_le (c c' : comparison) : Prop :=
  match c, c' with Lt, _ | Eq, Eq | _, Gt => True | _, _ => False end.

Lemma cmp_mono {T} {cmp : T -> T -> comparison} (P : preorder cmp) j x v :
  cmp j x <> Gt -> comp_le (cmp j v) (cmp x v).
Proof.
  destruct P as [swap trans]. intros Hjx.
  destruct (cmp j v) eqn:Ej, (cmp x v) eqn:Ex; cbn; trivial.
  - (* v <= j <= x, yet x < v *)
    apply (trans v j x); [rewrite swap, Ej; cbn; discriminate | exact Hjx | rewrite swap, Ex; reflexivity].
  - (* j <= x < v, yet v < j *)
    apply (trans j x v Hjx); congruence.
  - (* j <= x = v, yet v < j *)
    apply (trans j x v Hjx); congruence.
Qed.

(* `< v` and `<= v` pass from x down to any j below x, `> v` and `>= v` up to
   any j above x; read backwards: when the bound j fails one of them, so does x.
   [up] tells an upper bound (the max statistic) from a lower one (the min). *)
Definition strict (up : bool) : cop := if up then OGt else OLt.
Definition weak (up : bool) : cop := if up then OGe else OLe.

Lemma ord_bound {T} {cmp : T -> T -> comparison} (P : preorder cmp) up o j x v :
  o = strict up \/ o = weak up ->
  (if up then cmp x j else cmp j x) <> Gt ->
  op_holds o (cmp j v) = false -> op_holds o (cmp x v) = false.
Proof.
  intros Ho H.
  assert (M : if up then comp_le (cmp x v) (cmp j v) else comp_le (cmp j v) (cmp x v))
    by (destruct up; exact (cmp_mono P _ _ v H)).
  destruct up, Ho as [-> | ->]; destruct (cmp j v), (cmp x v); cbn in *; tauto.
Qed.

Lemma bound_op_ne up o : o = strict up \/ o = weak up -> o <> ONe.
Proof. destruct up; intros [-> | ->]; discriminate. Qed.

Lemma Z_preorder : preorder Z.compare.
Proof.
  split; [exact Z.compare_antisym|]. intros a b c. rewrite !Z.compare_le_iff. apply Z.le_trans.
Qed.

Lemma R_preorder : preorder Rcompare.
Proof.
  split; [intros a b; apply Rcompare_sym|]. intros a b c H1 H2.
  apply Rcompare_not_Gt_inv in H1, H2. apply Rcompare_not_Gt. lra.
Qed.

Lemma bytes_cmp_swap : forall a b, bytes_cmp b a = CompOpp (bytes_cmp a b).
Proof.
  induction a as [|x a IH]; intros [|y b]; cbn; auto.
  rewrite (N.compare_antisym x y).
  destruct (N.compare x y); cbn; auto.
Qed.

Lemma bytes_cmp_trans : forall a b c,
  bytes_cmp a b <> Gt -> bytes_cmp b c <> Gt -> bytes_cmp a c <> Gt.
Proof.
  induction a as [|x a IH]; intros [|y b] [|z c]; cbn; try congruence.
  (* three nonempty strings, by the comparisons of their first bytes: outcomes
     that contradict each other are impossible, a byte that differs decides,
     and three equal bytes leave it to the tails *)
  destruct (N.compare_spec x y), (N.compare_spec y z), (N.compare_spec x z);
    subst; try congruence; try lia.
  apply IH.
Qed.

Lemma bytes_preorder : preorder bytes_cmp.
Proof. exact (conj bytes_cmp_swap bytes_cmp_trans). Qed.

(* a strict comparison of integers that fails still fails after rounding to f64 *)
Lemma Z2F_strict : forall up m i,
  op_holds (strict up) (m ?= i) = false ->
  op_holds (strict up) (Rcompare (fE (Z2F m)) (fE (Z2F i))) = false.
Proof.
  intros [] m i H; cbn [strict] in *.
  - (* OGt *)
    assert (L : m <= i) by (destruct (Z.compare_spec m i); [lia | lia | discriminate H]).
    apply Z2F_mono in L.
    destruct (Rcompare_spec (fE (Z2F m)) (fE (Z2F i))); cbn; try reflexivity; lra.
  - (* OLt *)
    assert (L : i <= m) by (destruct (Z.compare_spec m i); [lia | discriminate H | lia]).
    apply Z2F_mono in L.
    destruct (Rcompare_spec (fE (Z2F m)) (fE (Z2F i))); cbn; try reflexivity; lra.
Qed.

(* the f64 a number is compared as when the other side is a float *)
Definition num (a : value) : option binary64 :=
  match a with VInt z => Some (Z2F z) | VFloat f => Some f | _ => None end.

Lemma vcmp_float : forall a g p, num a = Some p -> vcmp a (VFloat g) = fcmp p g.
Proof. intros [] g p H; inversion H; reflexivity. Qed.

Lemma prom_false : forall v, prom false v = v.
Proof. reflexivity. Qed.

(* promotion changes the way two values are compared only when both are
   integers *)
Lemma vcmp_prom : forall fl x v, is_pint v = false ->
  vcmp (prom fl x) (prom fl (lit v)) = vcmp x (lit v).
Proof. intros [] x [] H; try discriminate H; destruct x; reflexivity. Qed.

Lemma le_val_ord : forall a b c, le_val a b = true -> vcmp a b = COrd c -> c <> Gt.
Proof. unfold le_val. intros a b c H E. rewrite E in H. destruct c; congruence. Qed.

Lemma fcmp_le : forall p q,
  match fcmp p q with COrd Lt | COrd Eq => true | _ => false end = true ->
  f_nan p = false /\ f_nan q = false /\ Rcompare (fE p) (fE q) <> Gt.
Proof.
  intros p q. unfold fcmp. destruct (b64_compare p q) as [c|] eqn:E; [|discriminate].
  destruct (b64_compare_some _ _ _ E) as (Np & Nq & ->).
  destruct (Rcompare (fE p) (fE q)); intros H; repeat split; trivial; congruence.
Qed.

(* rounding is monotone: `<=` between numbers holds in f64 however it was decided *)
Lemma le_val_num : forall a b p q, le_val a b = true -> num a = Some p -> num b = Some q ->
  f_nan p = false /\ f_nan q = false /\ Rcompare (fE p) (fE q) <> Gt.
Proof.
  unfold le_val. intros a b p q H Hp Hq.
  destruct a as [| |m|f|]; try discriminate Hp; destruct b as [| |n|g|]; try discriminate Hq;
    inversion Hp; inversion Hq; subst p q; cbn [vcmp] in H.
  all: try exact (fcmp_le _ _ H).
  (* what is left are two integers, compared exactly *)
  assert (L : m <= n).
  { apply Z.compare_le_iff. intros E. rewrite E in H. discriminate H. }
  repeat split; try apply Z2F_not_nan. apply Rcompare_not_Gt, Z2F_mono, L.
Qed.

(* The outcomes of a comparison on which `o` is not TRUE, whatever the engine
   makes of comparisons across type classes. *)
Definition fails (o : cop) (r : cres) : Prop :=
  match r with
  | CNull => True
  | COrd c => op_holds o c = false
  | CUnord => o <> ONe
  | CCross => False
  end.

Lemma fails_eq : forall r, fails OLe r \/ fails OGe r -> fails OEq r.
Proof. intros [|[]| |]; cbn; intuition congruence. Qed.

Lemma fails_fcmp : forall o a b, o <> ONe ->
  op_holds o (Rcompare (fE a) (fE b)) = false -> fails o (fcmp a b).
Proof.
  intros o a b Ho H. unfold fcmp. destruct (b64_compare a b) as [c|] eqn:E; [|exact Ho].
  destruct (b64_compare_some _ _ _ E) as (_ & _ & ->). exact H.
Qed.

(* a min / max statistic as a value of the engine *)
Definition jval (j : json) : option value :=
  match j with
  | JInt z => Some (VInt z) | JFloat f => Some (VFloat f) | JStr s => Some (VStr s)
  | _ => None
  end.

Lemma as_f64_jval : forall j a, as_f64 j = Some a -> exists b, jval j = Some b /\ num b = Some a.
Proof. intros [] a H; inversion H; eexists; split; reflexivity. Qed.

(* x on the inner side of the bound b: at or above a lower bound, at or below
   an upper one *)
Definition inside (up : bool) (b x : value) : bool := if up then le_val x b else le_val b x.

(* inside a number, x is a number and on the same side in f64 *)
Lemma inside_num : forall up b x p, inside up b x = true -> num b = Some p ->
  f_nan p = false /\
  exists q, num x = Some q /\
    (if up then Rcompare (fE q) (fE p) else Rcompare (fE p) (fE q)) <> Gt.
Proof.
  intros up b x p Hw Hp.
  assert (exists q, num x = Some q) as [q Hq].
  { destruct b; try discriminate Hp; destruct x; try (destruct up; discriminate Hw);
      eexists; reflexivity. }
  destruct up; [destruct (le_val_num x b q p Hw Hq Hp) as (_ & Np & L)
               | destruct (le_val_num b x p q Hw Hp Hq) as (Np & _ & L)];
    exact (conj Np (ex_intro _ q (conj Hq L))).
Qed.

(* The engine's order is transitive except across the rounding of integers.
   When x is inside the statistic b and b fails `o v`, so does x; by the kind
   of the literal v: *)
Lemma bound_str : forall up o t x s, o = strict up \/ o = weak up ->
  inside up (VStr t) x = true -> op_holds o (bytes_cmp t s) = false ->
  fails o (vcmp x (VStr s)).
Proof.
  intros up o t x s Ho Hw Hc. destruct x as [| | | |u]; try (destruct up; discriminate Hw).
  apply (ord_bound bytes_preorder up o t u s Ho); [|exact Hc].
  destruct up; exact (le_val_ord _ _ _ Hw eq_refl).
Qed.

(* a float literal: all three comparisons are made in f64 *)
Lemma bound_float : forall up o b x p g c, o = strict up \/ o = weak up ->
  inside up b x = true -> num b = Some p -> b64_compare p g = Some c -> op_holds o c = false ->
  fails o (vcmp x (VFloat g)).
Proof.
  intros up o b x p g c Ho Hw Hp Hv Hc.
  destruct (inside_num up b x p Hw Hp) as (_ & q & Hq & L).
  rewrite (vcmp_float x g q Hq). apply fails_fcmp; [exact (bound_op_ne up o Ho)|].
  destruct (b64_compare_some _ _ _ Hv) as (_ & _ & ->).
  exact (ord_bound R_preorder up o (fE p) (fE q) (fE g) Ho L Hc).
Qed.

(* an integer literal is compared with an integer statistic exactly, but with
   a float x in f64: there only a strict operator's failure survives rounding *)
Definition nonstrict (o : cop) : bool :=
  match o with OEq | OLe | OGe => true | _ => false end.

Lemma bound_int : forall up o m x i, o = strict up \/ o = weak up ->
  inside up (VInt m) x = true -> op_holds o (m ?= i) = false ->
  is_vfloat x && nonstrict o = false ->
  fails o (vcmp x (VInt i)).
Proof.
  intros up o m x i Ho Hw Hc Hx. destruct x as [| |z|f|]; try (destruct up; discriminate Hw).
  - (* VInt *)
    apply (ord_bound Z_preorder up o m z i Ho); [|exact Hc].
    destruct up; exact (le_val_ord _ _ _ Hw eq_refl).
  - (* VFloat: the case of the float literal Z2F i *)
    destruct Ho as [-> | ->]; [|destruct up; discriminate Hx].
    exact (bound_float up _ (VInt m) (VFloat f) _ (Z2F i) _ (or_introl eq_refl) Hw eq_refl
             (b64_compare_E _ _ (Z2F_not_nan m) (Z2F_not_nan i)) (Z2F_strict up m i Hc)).
Qed.

Definition bound_ok (up : bool) (x : value) (j : json) : bool :=
  if up then upper_ok x j else lower_ok x j.

Lemma bound_ok_jval : forall up x j,
  bound_ok up x j = match jval j with Some b => inside up b x | None => true end.
Proof. intros [] x []; reflexivity. Qed.

Definition compl (o : cop) : cop :=
  match o with OEq => ONe | ONe => OEq | OLt => OGe | OLe => OGt | OGt => OLe | OGe => OLt end.
Lemma op_holds_compl : forall o c, op_holds (compl o) c = negb (op_holds o c).
Proof. intros [] []; reflexivity. Qed.

(* value_gte / value_gt / value_lte / value_lt, by the operator they test *)
Definition value_op (o : cop) : json -> pval -> bool :=
  match o with
  | OGe => value_gte | OGt => value_gt | OLe => value_lte | OLt => value_lt
  | _ => fun _ _ => false
  end.

(* the one comparison that they make of a statistic with a literal *)
Definition stat_cmp (j : json) (v : pval) : option comparison :=
  match v with
  | PStr s => match as_str j with Some x => Some (bytes_cmp x s) | None => None end
  | PInt i => match as_i64 j with Some x => Some (x ?= i) | None => None end
  | PFloat f => match as_f64 j with Some x => b64_compare x f | None => None end
  | _ => None
  end.

Lemma value_op_cmp : forall o j v, value_op o j v = true ->
  match stat_cmp j v with Some c => op_holds o c | None => false end = true.
Proof.
  intros o j v. destruct o; cbn [value_op]; try discriminate.
  all: destruct v; cbn [stat_cmp value_gte value_gt value_lte value_lt]; try discriminate;
    [ (* PStr *) destruct (as_str j) | (* PInt *) destruct (as_i64 j) | (* PFloat *) destruct (as_f64 j)];
    trivial.
Qed.

(* The known class at one comparison: an integer literal against an integer
   statistic while the engine compares in f64, because a member of the group
   is a float (fl), or because the row value is one and the operator is not
   strict. *)
Definition mixf (o : cop) (v : pval) (fl : bool) (x : value) (j : json) : bool :=
  match v with PInt _ => (fl || is_vfloat x && nonstrict o) && is_jint j | _ => false end.

(* x inside the statistic j, and j passes the complement of `o v` *)
Lemma stat_refutes : forall up o fl j v x,
  o = strict up \/ o = weak up ->
  value_op (compl o) j v = true -> bound_ok up x j = true ->
  mixf o v fl x j = false ->
  fails o (vcmp (prom fl x) (prom fl (lit v))).
Proof.
  intros up o fl j v x Ho Hc Hw Hk. apply value_op_cmp in Hc.
  destruct (stat_cmp j v) as [c|] eqn:E; [|discriminate Hc].
  rewrite op_holds_compl in Hc. apply negb_true_iff in Hc.
  rewrite bound_ok_jval in Hw.
  destruct v as [s|i|g|w|]; cbn [stat_cmp mixf] in *; try discriminate E.
  - (* a string literal, hence a string statistic *)
    destruct j as [| | | |t|]; cbn [as_str jval] in *; try discriminate E.
    inversion E; subst c. rewrite (vcmp_prom fl x (PStr s) eq_refl).
    exact (bound_str up o t x s Ho Hw Hc).
  - (* an integer literal, hence an integer statistic; outside the known class
       nothing is promoted *)
    destruct j as [| |m| | |]; cbn [as_i64 jval is_jint] in *; try discriminate E.
    destruct (in_i64 m); inversion E; subst c.
    rewrite andb_true_r in Hk. apply orb_false_iff in Hk. destruct Hk as [-> Hx].
    exact (bound_int up o m x i Ho Hw Hc Hx).
  - (* a float literal *)
    destruct (as_f64 j) as [a|] eqn:Ea; [|discriminate E].
    destruct (as_f64_jval j a Ea) as (b & Hb & Hp). rewrite Hb in Hw.
    rewrite (vcmp_prom fl x (PFloat g) eq_refl).
    exact (bound_float up o b x a g c Ho Hw Hp E Hc).
Qed.

Corollary min_refutes : forall o fl mn v x, o = OLt \/ o = OLe ->
  value_op (compl o) mn v = true -> lower_ok x mn = true -> mixf o v fl x mn = false ->
  fails o (vcmp (prom fl x) (prom fl (lit v))).
Proof. exact (stat_refutes false). Qed.

Corollary max_refutes : forall o fl mx v x, o = OGt \/ o = OGe ->
  value_op (compl o) mx v = true -> upper_ok x mx = true -> mixf o v fl x mx = false ->
  fails o (vcmp (prom fl x) (prom fl (lit v))).
Proof. exact (stat_refutes true). Qed.

(* a literal outside [mn, mx] is below mn or above mx, unless the comparison
   with one of them was unordered *)
Lemma in_range_false : forall v mn mx, value_in_range v mn mx = false ->
  value_gt mn v = true \/ value_lt mx v = true \/
  exists f a, v = PFloat f /\ (as_f64 mn = Some a \/ as_f64 mx = Some a) /\ b64_compare f a = None.
Proof.
  intros v mn mx. destruct v as [s|i|f|w|]; cbn [value_in_range value_gt value_lt]; try discriminate.
  - destruct (as_str mn) as [a|], (as_str mx) as [b|]; try discriminate.
    unfold s_ge, s_le, s_gt, s_lt. rewrite (bytes_cmp_swap s a), (bytes_cmp_swap s b).
    intros H. apply andb_false_iff in H.
    destruct H as [H|H]; [left | right; left]; revert H;
      [destruct (bytes_cmp s a) | destruct (bytes_cmp s b)]; cbn; congruence.
  - destruct (as_i64 mn) as [a|], (as_i64 mx) as [b|]; try discriminate.
    intros H. apply andb_false_iff in H. destruct H as [H|H]; [left | right; left]; lia.
  - destruct (as_f64 mn) as [a|] eqn:Ea, (as_f64 mx) as [b|] eqn:Eb; try discriminate.
    unfold f_ge, f_le, f_gt, f_lt. rewrite (b64_compare_swap f a), (b64_compare_swap f b).
    destruct (b64_compare f a) as [ca|] eqn:E1; [|right; right; exists f, a; auto].
    destruct (b64_compare f b) as [cb|] eqn:E2; [|right; right; exists f, b; auto].
    intros H. apply andb_false_iff in H.
    destruct H as [H|H]; [left; destruct ca | right; left; destruct cb]; cbn in *; congruence.
Qed.

(* a literal unordered with a statistic that bounds x is a NaN: nothing equals it *)
Lemma nan_literal_eq : forall up x j a f,
  bound_ok up x j = true -> as_f64 j = Some a -> b64_compare f a = None ->
  fails OEq (vcmp x (VFloat f)).
Proof.
  intros up x j a f Hw Ha Hn.
  destruct (as_f64_jval j a Ha) as (b & Hb & Hp). rewrite bound_ok_jval, Hb in Hw.
  destruct (inside_num up b x a Hw Hp) as (Na & q & Hq & _).
  destruct (f_nan f) eqn:Nf; [|rewrite (b64_compare_E f a Nf Na) in Hn; discriminate].
  rewrite (vcmp_float x f q Hq).
  unfold fcmp. rewrite (b64_compare_nan_r _ _ Nf). discriminate.
Qed.

Lemma range_refutes_eq : forall fl mn mx v x,
  value_in_range v mn mx = false ->
  lower_ok x mn = true -> upper_ok x mx = true ->
  mixf OEq v fl x mn = false -> mixf OEq v fl x mx = false ->
  fails OEq (vcmp (prom fl x) (prom fl (lit v))).
Proof.
  intros fl mn mx v x Hc Hl Hu K1 K2.
  destruct (in_range_false v mn mx Hc) as [H | [H | (f & a & -> & Ha & Hn)]].
  - (* mn > v: x fails `<= v` *)
    apply fails_eq. left. exact (min_refutes OLe fl mn v x (or_intror eq_refl) H Hl K1).
  - (* mx < v: x fails `>= v` *)
    apply fails_eq. right. exact (max_refutes OGe fl mx v x (or_intror eq_refl) H Hu K2).
  - rewrite (vcmp_prom fl x (PFloat f) eq_refl).
    destruct Ha as [Ha|Ha];
      [exact (nan_literal_eq false x mn a f Hl Ha Hn) | exact (nan_literal_eq true x mx a f Hu Ha Hn)].
Qed.

(* [mixed_atom] and [group_known] of the model are [mixf] at both statistics:
   for a single comparison nothing is promoted and only a float row value
   under a non-strict operator counts *)
Lemma mixed_atom_false : forall o v s x,
  nonstrict o && mixed_atom v s x = false ->
  mixf o v false x (st_min s) = false /\ mixf o v false x (st_max s) = false.
Proof.
  intros o v s x H. unfold mixed_atom in H. unfold mixf.
  destruct v; auto. destruct x; auto. cbn [is_vfloat orb andb].
  destruct (nonstrict o), (is_jint (st_min s)), (is_jint (st_max s)); cbn in *; auto; discriminate H.
Qed.

(* outside the known class a BETWEEN / IN group is of one class, and an integer
   literal in it is compared exactly or against statistics that are no integers *)
Lemma group_known_false : forall x lits s,
  group_known x lits s = false ->
  uniform (x :: map lit lits) = true /\
  forall o v, In v lits ->
    mixf o v (existsb is_vfloat (x :: map lit lits)) x (st_min s) = false /\
    mixf o v (existsb is_vfloat (x :: map lit lits)) x (st_max s) = false.
Proof.
  intros x lits s H. unfold group_known in H.
  apply orb_false_iff in H. destruct H as (Hu & Hm).
  apply negb_false_iff in Hu. split; [exact Hu|].
  intros o v Hv. unfold mixf. destruct v; auto.
  assert (Hp : existsb is_pint lits = true) by (apply existsb_exists; exists (PInt i); auto).
  rewrite Hp, andb_true_r in Hm.
  destruct (existsb is_vfloat (x :: map lit lits)) eqn:Ef.
  - (* a float in the group: neither statistic is an integer *)
    apply orb_false_iff in Hm. destruct Hm as (-> & ->). rewrite !andb_false_r. auto.
  - (* no float in the group, x included *)
    cbn [existsb] in Ef. apply orb_false_iff in Ef. destruct Ef as (-> & _). auto.
Qed.

(* a comparison with a row value within its statistics: NULL compares to
   nothing, anything else lies between st_min and st_max *)
Lemma within_elim : forall o fl x l s, within x s = true ->
  (lower_ok x (st_min s) = true -> upper_ok x (st_max s) = true ->
   fails o (vcmp (prom fl x) l)) ->
  fails o (vcmp (prom fl x) l).
Proof.
  intros o fl x l s H K. destruct x; [ (* VNull *) destruct fl; exact I | ..];
    cbn [within] in H; apply andb_true_iff in H; exact (K (proj1 H) (proj2 H)).
Qed.

(* the test on which evaluate_against_stats prunes `column o v` *)
Definition prunes (o : cop) (s : cstats) (v : pval) : bool :=
  match o with
  | OEq => negb (value_in_range v (st_min s) (st_max s))
  | OLt => value_gte (st_min s) v
  | OLe => value_gt (st_min s) v
  | OGt => value_lte (st_max s) v
  | OGe => value_lt (st_max s) v
  | ONe => false
  end.

(* Every column node of a predicate rests on this: a row value within the
   statistics fails a comparison that they prune, outside the known class. *)
Lemma prunes_sound : forall o fl s v x,
  within x s = true -> prunes o s v = true ->
  mixf o v fl x (st_min s) = false -> mixf o v fl x (st_max s) = false ->
  fails o (vcmp (prom fl x) (prom fl (lit v))).
Proof.
  intros o fl s v x Hw Hp K1 K2. apply (within_elim o fl x _ s Hw). intros Hl Hu.
  destruct o; cbn [prunes] in Hp.
  - (* OEq *) apply negb_true_iff in Hp. exact (range_refutes_eq fl _ _ v x Hp Hl Hu K1 K2).
  - (* ONe *) discriminate Hp.
  - (* OLt *) exact (min_refutes OLt fl _ v x (or_introl eq_refl) Hp Hl K1).
  - (* OLe *) exact (min_refutes OLe fl _ v x (or_intror eq_refl) Hp Hl K1).
  - (* OGt *) exact (max_refutes OGt fl _ v x (or_introl eq_refl) Hp Hu K2).
  - (* OGe *) exact (max_refutes OGe fl _ v x (or_intror eq_refl) Hp Hu K2).
Qed.

(* the six comparison nodes of a predicate, by their operator *)
Definition cmp_pred (o : cop) (c : colname) (v : pval) : pred :=
  match o with
  | OEq => PEq c v | ONe => PNotEq c v | OLt => PLt c v
  | OLe => PLtEq c v | OGt => PGt c v | OGe => PGtEq c v
  end.

Lemma eval_stats_cmp_pred : forall o c v st,
  eval_stats (cmp_pred o c v) st =
  match cget c st with Some s => negb (prunes o s v) | None => true end.
Proof.
  intros [] c v st; cbn [cmp_pred eval_stats prunes]; destruct (cget c st);
    rewrite ?negb_involutive; reflexivity.
Qed.

Lemma known_mixed_cmp_pred : forall o c v st r,
  known_mixed (cmp_pred o c v) st r =
  match cget c st with Some s => nonstrict o && mixed_atom v s (rget c r) | None => false end.
Proof. intros [] c v st r; cbn [cmp_pred known_mixed nonstrict andb]; destruct (cget c st); reflexivity. Qed.

Section WithXc.
Variable xc : cop -> value -> value -> tv.
Variable xg : list value -> tv.

Lemma fails_not_TT : forall o a b, fails o (vcmp a b) -> cmp_tv xc o a b <> TT.
Proof.
  intros o a b. unfold cmp_tv. destruct (vcmp a b); cbn [fails].
  - discriminate.
  - intros ->. discriminate.
  - intros Ho. destruct o; try discriminate. contradiction.
  - contradiction.
Qed.

Lemma sat_cmp_pred : forall o c v r, sat xc xg (cmp_pred o c v) r = cmp_tv xc o (rget c r) (lit v).
Proof. intros [] c v r; reflexivity. Qed.

Lemma cmp_pred_sound : forall o c v st r,
  in_stats r st -> known_mixed (cmp_pred o c v) st r = false ->
  eval_stats (cmp_pred o c v) st = false -> sat xc xg (cmp_pred o c v) r <> TT.
Proof.
  intros o c v st r Hin Hk He.
  rewrite known_mixed_cmp_pred in Hk. rewrite eval_stats_cmp_pred in He. rewrite sat_cmp_pred.
  (* a column without statistics prunes nothing *)
  destruct (cget c st) as [s|] eqn:Ec; [|discriminate He].
  apply negb_false_iff in He. destruct (mixed_atom_false o v s _ Hk) as (K1 & K2).
  exact (fails_not_TT _ _ _ (prunes_sound o false s v _ (Hin c s Ec) He K1 K2)).
Qed.

Lemma fold_or_not_TT : forall (f : value -> tv) ls,
  (forall l, In l ls -> f l <> TT) ->
  fold_right (fun l acc => tv_or (f l) acc) FF ls <> TT.
Proof.
  intros f ls. induction ls as [|l ls IH]; intros H; cbn.
  - discriminate.
  - intros Hc. apply tv_or_TT in Hc. destruct Hc as [Hc | Hc].
    + apply (H l); [left; reflexivity | exact Hc].
    + apply IH; [|exact Hc]. intros w Hw. apply H. right. exact Hw.
Qed.

Theorem sound_modulo_known : forall p st r,
  in_stats r st -> known_mixed p st r = false -> eval_stats p st = false ->
  sat xc xg p r <> TT.
Proof.
  intros p st r Hin.
  induction p as [c v | c v | c v | c v | c v | c v | c vs | c vs | c lo hi
                 | l IHl q IHq | l IHl q IHq | q IHq]; cbn [eval_stats known_mixed sat];
    intros Hk He; try discriminate.
  - (* Eq *) exact (cmp_pred_sound OEq c v st r Hin Hk He).
  - (* Lt *) exact (cmp_pred_sound OLt c v st r Hin Hk He).
  - (* LtEq *) exact (cmp_pred_sound OLe c v st r Hin Hk He).
  - (* Gt *) exact (cmp_pred_sound OGt c v st r Hin Hk He).
  - (* GtEq *) exact (cmp_pred_sound OGe c v st r Hin Hk He).
  - (* In: no member of the list is in range *)
    destruct (cget c st) as [s|] eqn:Ec; [|discriminate]. pose proof (Hin c s Ec) as Hw.
    destruct (group_known_false _ _ _ Hk) as (Hu & Hm).
    unfold in_tv, group_tv. rewrite Hu.
    set (fl := existsb is_vfloat (rget c r :: map lit vs)) in *.
    apply (fold_or_not_TT (fun l => cmp_tv xc OEq (prom fl (rget c r)) (prom fl l))).
    intros l Hl. apply in_map_iff in Hl. destruct Hl as (v & <- & Hv).
    destruct (Hm OEq v Hv) as (K1 & K2).
    apply fails_not_TT, (prunes_sound OEq fl s v _ Hw); [|exact K1|exact K2].
    cbn [prunes]. rewrite (existsb_false _ _ He v Hv). reflexivity.
  - (* Between: the upper statistic is below lo, or the lower one above hi *)
    destruct (cget c st) as [s|] eqn:Ec; [|discriminate]. pose proof (Hin c s Ec) as Hw.
    apply negb_false_iff in He.
    destruct (group_known_false _ _ _ Hk) as (Hu & Hm).
    unfold between_tv, group_tv. cbn [map] in Hu, Hm. rewrite Hu.
    set (fl := existsb is_vfloat [rget c r; lit lo; lit hi]) in *.
    intros Hc. apply tv_and_TT in Hc. destruct Hc as (Hge & Hle).
    apply orb_true_iff in He. destruct He as [He | He].
    + destruct (Hm OGe lo (or_introl eq_refl)) as (K1 & K2).
      exact (fails_not_TT _ _ _ (prunes_sound OGe fl s lo _ Hw He K1 K2) Hge).
    + destruct (Hm OLe hi (or_intror (or_introl eq_refl))) as (K1 & K2).
      exact (fails_not_TT _ _ _ (prunes_sound OLe fl s hi _ Hw He K1 K2) Hle).
  - (* And *)
    apply orb_false_iff in Hk. destruct Hk as (K1 & K2).
    intros Hc. apply tv_and_TT in Hc. destruct Hc as (H1 & H2).
    apply andb_false_iff in He. destruct He as [He | He].
    + exact (IHl K1 He H1).
    + exact (IHq K2 He H2).
  - (* Or *)
    apply orb_false_iff in Hk. destruct Hk as (K1 & K2).
    apply orb_false_iff in He. destruct He as (E1 & E2).
    intros Hc. apply tv_or_TT in Hc. destruct Hc as [Hc | Hc].
    + exact (IHl K1 E1 Hc).
    + exact (IHq K2 E2 Hc).
Qed.

End WithXc.

Lemma in_statsb_sound : forall r st, in_statsb r st = true -> in_stats r st.
Proof.
  intros r st H c s Hg. apply (aget_In N.eqb Neqb_spec) in Hg.
  exact (proj1 (forallb_forall _ _) H (c, s) Hg).
Qed.

Lemma val_has_same_class : forall t a b,
  val_has t a = true -> val_has t b = true -> same_class a b = true.
Proof. intros t a b Ha Hb. destruct t, a, b; try discriminate; reflexivity. Qed.

Lemma typed_uniform : forall t g,
  (forall v, In v g -> val_has t v = true) -> uniform g = true.
Proof.
  intros t g H. unfold uniform.
  apply forallb_forall. intros a Ha. apply forallb_forall. intros b Hb.
  exact (val_has_same_class t a b (H a Ha) (H b Hb)).
Qed.

Lemma typed_group_not_known : forall t x lits s,
  val_has t x = true -> forallb (lit_has t) lits = true -> group_known x lits s = false.
Proof.
  intros t x lits s Hx Hl. unfold group_known.
  assert (Hg : forall v, In v (x :: map lit lits) -> val_has t v = true).
  { intros v [<- | Hv]; [exact Hx|]. apply in_map_iff in Hv. destruct Hv as (w & <- & Hw).
    exact (proj1 (forallb_forall _ _) Hl w Hw). }
  rewrite (typed_uniform t _ Hg). cbn [negb orb].
  destruct (existsb is_vfloat (x :: map lit lits)) eqn:Ef; [|reflexivity].
  destruct (existsb is_pint lits) eqn:Ep; [|reflexivity].
  exfalso.
  apply existsb_exists in Ef. destruct Ef as (vf & Hvf & Hf).
  apply existsb_exists in Ep. destruct Ep as (vp & Hvp & Hp).
  assert (H1 := Hg vf Hvf).
  assert (H2 := proj1 (forallb_forall _ _) Hl vp Hvp). unfold lit_has in H2.
  destruct vf; try discriminate. destruct vp; try discriminate.
  destruct t; discriminate.
Qed.

Lemma typed_not_known : forall ty p st r,
  row_typed ty r -> pred_typed ty p = true -> known_mixed p st r = false.
Proof.
  intros ty p st r Hr.
  assert (Ha : forall c v s, lit_has (ty c) v = true -> mixed_atom v s (rget c r) = false).
  { intros c v s Hv. specialize (Hr c). unfold mixed_atom, lit_has in *.
    destruct v; auto. destruct (rget c r); auto. destruct (ty c); discriminate. }
  induction p as [c v | c v | c v | c v | c v | c v | c vs | c vs | c lo hi
                 | l IHl q IHq | l IHl q IHq | q IHq]; cbn [known_mixed pred_typed]; intros Ht;
    try reflexivity.
  1-3: (* Eq, LtEq, GtEq *) destruct (cget c st) as [s|]; [exact (Ha c v s Ht) | reflexivity].
  3-4: (* And, Or *) apply andb_true_iff in Ht; destruct Ht as (T1 & T2);
    rewrite (IHl T1), (IHq T2); reflexivity.
  - (* In *) destruct (cget c st); [|reflexivity].
    exact (typed_group_not_known (ty c) _ _ _ (Hr c) Ht).
  - (* Between *) destruct (cget c st); [|reflexivity].
    apply (typed_group_not_known (ty c)); [exact (Hr c)|].
    cbn [forallb]. rewrite andb_true_r. exact Ht.
Qed.

(* the full statement for well-typed rows and predicates: every column has one
   type, its row values and the literals compared with it are NULL or of that
   type (integers, floats, strings, booleans); statistics are arbitrary *)
Theorem sound_well_typed : forall xc xg ty p st (rows : list row),
  pred_typed ty p = true ->
  (forall r, In r rows -> in_stats r st /\ row_typed ty r) ->
  eval_stats p st = false ->
  forall r, In r rows -> sat xc xg p r <> TT.
Proof.
  intros xc xg ty p st rows Hp H He r Hr. destruct (H r Hr) as (Hin & Ht).
  exact (sound_modulo_known xc xg p st r Hin (typed_not_known ty p st r Ht Hp) He).
Qed.

Theorem sound_modulo_known_rows : forall xc xg p st (rows : list row),
  (forall r, In r rows -> in_stats r st) ->
  eval_stats p st = false ->
  forall r, In r rows -> known_mixed p st r = false -> sat xc xg p r <> TT.
Proof.
  intros xc xg p st rows H He r Hr Hk. exact (sound_modulo_known xc xg p st r (H r Hr) Hk He).
Qed.

Definition xc_unknown : cop -> value -> value -> tv := fun _ _ _ => UU.
Definition xg_unknown : list value -> tv := fun _ => UU.

(* the known class: integer statistics above 2^53, integer literal, float row *)
Definition w_col : colname := 7%N.
Definition w_mixed_pred : pred := PLtEq w_col (PInt (2 ^ 53 + 3)).
Definition w_mixed_stats : stats := [(w_col, mkStats (JInt (2 ^ 53 + 4)) (JInt (2 ^ 53 + 4)) false)].
Definition w_mixed_row : row := [(w_col, VFloat (Z2F (2 ^ 53 + 4)))].

Theorem refuted_mixed :
  exists p st r,
    in_stats r st /\ eval_stats p st = false /\ sat xc_unknown xg_unknown p r = TT /\
    known_mixed p st r = true.
Proof.
  exists w_mixed_pred, w_mixed_stats, w_mixed_row.
  split; [apply in_statsb_sound; vm_compute; reflexivity|].
  repeat split; vm_compute; reflexivity.
Qed.

(* the same class through a float literal in the same BETWEEN: an integer
   column, `v BETWEEN 0.5 AND 2^53` (the engine coerces the three operands to
   f64), statistics [2^53+1, 2^53+1], row 2^53+1 *)
Definition w_half : binary64 := b64_of_bits 4602678819172646912.
Definition w_between_pred : pred := PBetween w_col (PFloat w_half) (PInt (2 ^ 53)).
Definition w_between_stats : stats := [(w_col, mkStats (JInt (2 ^ 53 + 1)) (JInt (2 ^ 53 + 1)) false)].
Definition w_between_row : row := [(w_col, VInt (2 ^ 53 + 1))].

Theorem refuted_mixed_between :
  in_stats w_between_row w_between_stats /\
  eval_stats w_between_pred w_between_stats = false /\
  sat xc_unknown xg_unknown w_between_pred w_between_row = TT /\
  known_mixed w_between_pred w_between_stats w_between_row = true.
Proof.
  split; [apply in_statsb_sound; vm_compute; reflexivity|].
  repeat split; vm_compute; reflexivity.
Qed.

(* before the fix: `v <= 5` on statistics [5, 9] pruned the chunk holding 5 *)
Definition w_le_pred : pred := PLtEq w_col (PInt 5).
Definition w_ge_pred : pred := PGtEq w_col (PInt 9).
Definition w_59_stats : stats := [(w_col, mkStats (JInt 5) (JInt 9) false)].

Theorem refuted_shared_arms :
  in_stats [(w_col, VInt 5)] w_59_stats /\
  eval_stats_shared_arms w_le_pred w_59_stats = false /\
  sat xc_unknown xg_unknown w_le_pred [(w_col, VInt 5)] = TT /\
  in_stats [(w_col, VInt 9)] w_59_stats /\
  eval_stats_shared_arms w_ge_pred w_59_stats = false /\
  sat xc_unknown xg_unknown w_ge_pred [(w_col, VInt 9)] = TT /\
  eval_stats w_le_pred w_59_stats = true /\
  eval_stats w_ge_pred w_59_stats = true.
Proof.
  repeat split; try (apply in_statsb_sound); vm_compute; reflexivity.
Qed.

(* non-vacuity: the hypotheses of the soundness theorems are satisfiable
   together with a pruning verdict *)
Definition w_typing : typing := fun c => if N.eqb c 8 then TStr else TInt.

Example sound_nonvacuous :
  let st := [(w_col, mkStats (JInt 5) (JInt 9) false); (8%N, mkStats (JStr [97%N]) (JStr [99%N]) false)] in
  let r := [(w_col, VInt 7); (8%N, VStr [98%N])] in
  let p := POr (PLtEq w_col (PInt 4))
               (PAnd (PIn 8%N [PStr [100%N]; PStr [101%N]]) (PNot (PBetween w_col (PInt 0) (PInt 3)))) in
  in_stats r st /\ row_typed w_typing r /\ pred_typed w_typing p = true /\
  known_mixed p st r = false /\
  eval_stats p st = false /\ sat xc_unknown xg_unknown p r = FF.
Proof.
  cbv zeta. split; [apply in_statsb_sound; vm_compute; reflexivity|].
  split.
  { intros c. unfold rget, w_typing. cbn [aget].
    destruct (N.eqb c w_col) eqn:E1.
    - apply N.eqb_eq in E1. subst c. reflexivity.
    - destruct (N.eqb c 8) eqn:E2; reflexivity. }
  repeat split; vm_compute; reflexivity.
Qed.

(* floats: statistics [-0.0, 1.5] prune `v > 1.5`, `v < -0.0`, `v = NaN`;
   the row 1.5 is within them and fails all three *)
Example sound_nonvacuous_float :
  let m0 := b64_of_bits 9223372036854775808 in        (* -0.0 *)
  let h := b64_of_bits 4609434218613702656 in         (* 1.5 *)
  let nan := b64_of_bits 9221120237041090560 in
  let st := [(w_col, mkStats (JFloat m0) (JFloat h) false)] in
  let r := [(w_col, VFloat h)] in
  in_stats r st /\ row_typed (fun _ => TFloat) r /\
  eval_stats (PGt w_col (PFloat h)) st = false /\
  eval_stats (PLt w_col (PFloat m0)) st = false /\
  eval_stats (PEq w_col (PFloat nan)) st = false /\
  eval_stats (PGtEq w_col (PFloat h)) st = true.
Proof.
  cbv zeta. split; [apply in_statsb_sound; vm_compute; reflexivity|]. split.
  { intros c. unfold rget. cbn [aget]. destruct (N.eqb c w_col); reflexivity. }
  repeat split; vm_compute; reflexivity.
Qed.

Theorem gate_sound : forall xc xg preds st (rows : list row),
  (forall r, In r rows -> in_stats r st) ->
  gate preds st = false ->
  forall r, In r rows ->
    (forall p, In p preds -> known_mixed p st r = false) ->
    exists p, In p preds /\ sat xc xg p r <> TT.
Proof.
  intros xc xg preds st rows Hin Hg r Hr Hk.
  destruct (forallb_false _ _ Hg) as (p & Hp & He). exists p. split; [exact Hp|].
  exact (sound_modulo_known xc xg p st r (Hin r Hr) (Hk p Hp) He).
Qed.

Lemma chunks_with_predicates_spec : forall (A : Type) preds (chunks : list (A * stats)) c,
  In c (chunks_with_predicates preds chunks) <-> In c chunks /\ gate preds (snd c) = true.
Proof. intros A preds chunks c. unfold chunks_with_predicates. apply filter_In. Qed.

Lemma convert_scalar_value : forall e v,
  convert_scalar e = Some v -> scalar_value e = Some (lit v).
Proof. intros e v H. unfold scalar_value. rewrite H. reflexivity. Qed.

Lemma esat_and : forall xc xg l q r, esat xc xg (EBin l BAnd q) r = tv_and (esat xc xg l r) (esat xc xg q r).
Proof. reflexivity. Qed.
Lemma esat_or : forall xc xg l q r, esat xc xg (EBin l BOr q) r = tv_or (esat xc xg l r) (esat xc xg q r).
Proof. reflexivity. Qed.

Lemma esat_cmp : forall xc xg c o q r co v,
  cop_of o = Some co -> convert_scalar q = Some v ->
  esat xc xg (EBin (ECol c) o q) r = cmp_tv xc co (rget c r) (lit v).
Proof.
  intros xc xg c o q r co v Ho Hv.
  destruct o; try discriminate Ho; inversion Ho; subst co; cbn [esat cop_of];
    rewrite (convert_scalar_value _ _ Hv); reflexivity.
Qed.

(* a comparison is converted when it has a column other than the time column
   on its left and a literal on its right *)
Lemma convert_gen_cmp : forall bn c o q p,
  convert_gen bn (EBin (ECol c) o q) = Some p ->
  exists co v, cop_of o = Some co /\ convert_scalar q = Some v /\ p = cmp_pred co c v.
Proof.
  intros bn c o q p. cbn [convert_gen].
  destruct (is_time_col c); [discriminate|].
  destruct (convert_scalar q) as [v|]; [|discriminate].
  intros H. destruct o; inversion H; eexists; exists v; repeat split; reflexivity.
Qed.

Definition as_col (e : expr) : option colname :=
  match e with ECol c => Some c | _ => None end.

(* with any other left operand: AND / OR of two converted operands *)
Lemma convert_gen_conn : forall bn l o q p,
  as_col l = None -> convert_gen bn (EBin l o q) = Some p ->
  exists a b, convert_gen bn l = Some a /\ convert_gen bn q = Some b /\
    (o = BAnd /\ p = PAnd a b \/ o = BOr /\ p = POr a b).
Proof.
  intros bn l o q p Hl.
  replace (convert_gen bn (EBin l o q)) with
    (match o with
     | BAnd => match convert_gen bn l, convert_gen bn q with
               | Some a, Some b => Some (PAnd a b) | _, _ => None end
     | BOr => match convert_gen bn l, convert_gen bn q with
              | Some a, Some b => Some (POr a b) | _, _ => None end
     | _ => None
     end) by (destruct l; [discriminate Hl | reflexivity ..]).
  destruct o; try discriminate;
    (destruct (convert_gen bn l) as [a|]; [|discriminate]);
    (destruct (convert_gen bn q) as [b|]; [|discriminate]);
    intros H; inversion H; exists a, b; repeat split.
  - (* BAnd *) left. auto.
  - (* BOr *) right. auto.
Qed.

Theorem convert_exact : forall xc xg e p,
  convert e = Some p -> forall r, esat xc xg e r = sat xc xg p r.
Proof.
  intros xc xg. unfold convert.
  induction e as [c | s | l IHl o q IHq | e IHe negated lo IHlo hi IHhi | e IHe l negated | e IHe | ];
    intros p H r; try discriminate H.
  - (* EBin *)
    destruct (as_col l) as [c|] eqn:El.
    + destruct l; try discriminate El.
      destruct (convert_gen_cmp _ _ _ _ _ H) as (co & v & Ho & Hv & ->).
      rewrite (esat_cmp xc xg _ _ _ r co v Ho Hv). symmetry. apply sat_cmp_pred.
    + destruct (convert_gen_conn _ _ _ _ _ El H) as (a & b & Ea & Eb & [[-> ->] | [-> ->]]);
        [rewrite esat_and | rewrite esat_or]; cbn [sat];
        rewrite (IHl a Ea r), (IHq b Eb r); reflexivity.
  - (* EBetween *)
    cbn [convert_gen] in H.
    destruct e as [c | | | | | | ]; try discriminate.
    destruct (is_time_col c); [discriminate|].
    destruct negated; cbn [andb] in H; [discriminate|].
    destruct (convert_scalar lo) as [a|] eqn:Ea; [|discriminate].
    destruct (convert_scalar hi) as [b|] eqn:Eb; [|discriminate].
    inversion H; subst p. cbn [esat sat].
    rewrite (convert_scalar_value _ _ Ea), (convert_scalar_value _ _ Eb). reflexivity.
  - (* EInList *)
    cbn [convert_gen] in H.
    destruct e as [c | | | | | | ]; try discriminate.
    destruct (is_time_col c); [discriminate|].
    destruct (convert_scalars l) as [vs|] eqn:Ev; [|discriminate].
    inversion H; subst p. cbn [esat]. rewrite Ev.
    destruct negated; reflexivity.
  - (* ENot *)
    cbn [convert_gen] in H.
    destruct (convert_gen true e) as [a|] eqn:Ea; [|discriminate].
    inversion H; subst p. cbn [esat sat]. rewrite (IHe a eq_refl r). reflexivity.
Qed.

(* before the fix the `negated` flag of BETWEEN was ignored *)
Theorem refuted_negation_dropped :
  let e := EBetween (ECol w_col) true (ELit (SInt64 10)) (ELit (SInt64 20)) in
  let st := [(w_col, mkStats (JInt 30) (JInt 40) false)] in
  let r := [(w_col, VInt 35)] in
  exists p, convert_negation_dropped e = Some p /\
    in_stats r st /\ eval_stats p st = false /\ esat xc_unknown xg_unknown e r = TT /\
    convert e = None.
Proof.
  cbv zeta. eexists. split; [vm_compute; reflexivity|].
  split; [apply in_statsb_sound; vm_compute; reflexivity|].
  repeat split; vm_compute; reflexivity.
Qed.

(* end to end: expression -> predicate -> statistics verdict *)
Theorem convert_then_prune_sound : forall xc xg e p st (rows : list row),
  convert e = Some p ->
  (forall r, In r rows -> in_stats r st) ->
  eval_stats p st = false ->
  forall r, In r rows -> known_mixed p st r = false -> esat xc xg e r <> TT.
Proof.
  intros xc xg e p st rows Hc Hin He r Hr Hk.
  rewrite (convert_exact xc xg e p Hc r). exact (sound_modulo_known xc xg p st r (Hin r Hr) Hk He).
Qed.

Example convert_nonvacuous :
  let e := EBin (EBin (ECol w_col) BLtEq (ELit (SInt64 4))) BOr
                (ENot (EInList (ECol 8%N) [ELit (SUtf8 [97%N])] true)) in
  exists p, convert e = Some p.
Proof. cbv zeta. eexists. vm_compute. reflexivity. Qed.
